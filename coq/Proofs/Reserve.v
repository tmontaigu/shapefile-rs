(** C17: every pre-sizing request the model records (the `Vec::with_capacity`
    sites of the decoders and of the index reader, as [reserve]) is bounded by a
    constant, whatever counts the input declares: the ledger [s_reserved] of the
    source only ever receives entries of at most [RES_MAX] bytes. *)
From SF Require Import Model.Bytes Model.Res Model.Prog.
From SF Require Import Proofs.ProgLemmas.
Open Scope Z_scope.

(** 1024 elements ([MAX_PREALLOC], the cap of `capacity_for`) of at most 32
    bytes (a point with Z and M). *)
Definition RES_MAX : Z := 32768.

Inductive rb {A} : prog A -> Prop :=
| rb_ret a : rb (Ret a)
| rb_fail e : rb (Fail e)
| rb_panic : rb PanicP
| rb_take n k : (forall r, rb (k r)) -> rb (Take n k)
| rb_seek_start q k : (forall r, rb (k r)) -> rb (SeekStart q k)
| rb_seek_end k : (forall r, rb (k r)) -> rb (SeekEnd k)
| rb_reserve n k : n <= RES_MAX -> rb k -> rb (Reserve n k).

Definition ledger_ok (s : src) : Prop := Forall (fun n => n <= RES_MAX) (s_reserved s).

Theorem rb_run {A} (p : prog A) : rb p -> forall s, ledger_ok s -> ledger_ok (snd (run p s)).
Proof.
  unfold ledger_ok.
  induction 1 as [a|e| |n k Hk IH|q k Hk IH|k Hk IH|n k Hn Hk IH]; intros s Hs; cbn [run]; try exact Hs.
  - destruct (do_take_frame n s) as (_ & _ & _ & R & _). destruct (do_take n s) as [r s']. cbn [snd] in R. apply IH. rewrite R. exact Hs.
  - destruct (do_seek_start_frame q s) as (_ & _ & _ & R & _). destruct (do_seek_start q s) as [r s']. cbn [snd] in R. apply IH. rewrite R. exact Hs.
  - destruct (do_seek_end_frame s) as (_ & _ & _ & R & _). destruct (do_seek_end s) as [r s']. cbn [snd] in R. apply IH. rewrite R. exact Hs.
  - apply IH. constructor; assumption.
Qed.

Lemma rb_bind {A B} (p : prog A) (f : A -> prog B) : rb p -> (forall a, rb (f a)) -> rb (bind p f).
Proof. intros Hp Hf; induction Hp; cbn [bind]; try constructor; auto. Qed.

Lemma rb_catch {A} (p : prog A) : rb p -> rb (catch p).
Proof. induction 1; cbn [catch]; constructor; auto. Qed.

Lemma rb_lift_res {A} (r : res A) : rb (lift_res r).
Proof. destruct r; constructor. Qed.

Lemma rb_take_ n : rb (take n). Proof. constructor. intros; apply rb_lift_res. Qed.
Lemma rb_seek_start_ q : rb (seek_start q). Proof. constructor. intros; apply rb_lift_res. Qed.
Lemma rb_seek_end_ : rb seek_end. Proof. constructor. intros; apply rb_lift_res. Qed.
Lemma rb_reserve_ n : n <= RES_MAX -> rb (reserve n). Proof. intros H. constructor; [exact H|constructor]. Qed.
