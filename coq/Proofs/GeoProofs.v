(** C20: conversions to and from geo-types (modelled as list structures): a
    2-D point and its X/Y pair, and the grouping of polygon rings into
    exterior + holes. *)
From SF Require Import Model.Bytes Model.Shapes Model.Geo.
Open Scope Z_scope.

(** A 2-D point as the library holds it: Z and M are +0.0, so its X/Y pair determines it. *)
Definition clean2 (p : pt) : Prop := pz p = 0 /\ pm p = 0.
Lemma pt_of_xy p : clean2 p -> pt_of XY (xy p) = p.
Proof. intros [Hz Hm]. destruct p as [x y z m]. cbn in *. subst. reflexivity. Qed.
Lemma map_pt_of_xy ps : Forall clean2 ps -> map (pt_of XY) (map xy ps) = ps.
Proof. induction 1 as [|p r Hp _ IH]; [reflexivity|]. cbn [map]. rewrite pt_of_xy, IH by exact Hp. reflexivity. Qed.
Lemma xy_pt_of c : xy (pt_of XY c) = c.
Proof. destruct c; reflexivity. Qed.
Lemma map_xy_pt_of l : map xy (map (pt_of XY) l) = l.
Proof. induction l as [|c r IH]; [reflexivity|]. cbn [map]. rewrite xy_pt_of, IH. reflexivity. Qed.

Definition flat_poly (p : gpoly) : list (bool * list Geo.coord) := (true, gp_ext p) :: map (fun i => (false, i)) (gp_ints p).
Definition flat_polys (l : list gpoly) : list (bool * list Geo.coord) := flat_map flat_poly l.
Definition flat_last (o : option gpoly) : list (bool * list Geo.coord) := match o with Some p => flat_poly p | None => [] end.

Definition ring_closed (r : bool * list Geo.coord) : Prop := geo_close (snd r) = snd r.
Definition outer_first (rings : list (bool * list Geo.coord)) : Prop :=
  match rings with (false, _) :: _ => False | _ => True end.

Lemma flat_polys_app a b : flat_polys (a ++ b) = flat_polys a ++ flat_polys b.
Proof. unfold flat_polys. apply flat_map_app. Qed.

(** Without the second hypothesis an inner ring could meet no open polygon and
    be given one with an empty exterior, a ring that was not in the list;
    [ring_closed] because [gpoly_new] and [gpoly_push] close what they take. *)
Lemma group_rings_flat : forall rings last acc,
  Forall ring_closed rings ->
  (last <> None \/ outer_first rings) ->
  flat_polys (group_rings rings last acc) = flat_polys acc ++ flat_last last ++ rings.
Proof.
  induction rings as [|[o pts] r IH]; intros last acc Hc Hfirst; cbn [group_rings].
  - destruct last as [p|]; [rewrite flat_polys_app; cbn [flat_polys flat_map flat_last]; rewrite !app_nil_r; reflexivity|].
    cbn [flat_last]. rewrite !app_nil_r. reflexivity.
  - inversion Hc as [|? ? Hc1 Hc2]; subst. unfold ring_closed in Hc1. cbn [snd] in Hc1. destruct o.
    + rewrite IH; [|exact Hc2|left; discriminate].
      unfold gpoly_new. cbn [map]. rewrite Hc1. cbn [flat_last flat_poly gp_ext gp_ints map app].
      destruct last as [p|]; [rewrite flat_polys_app; cbn [flat_polys flat_map flat_last]; rewrite app_nil_r, <- !app_assoc; reflexivity|].
      cbn [flat_last app]. reflexivity.
    + destruct last as [p|]; [|destruct Hfirst as [H|H]; [contradiction H; reflexivity|contradiction]].
      rewrite IH; [|exact Hc2|left; discriminate]. f_equal.
      unfold gpoly_push. cbn [flat_last flat_poly gp_ext gp_ints]. rewrite Hc1. unfold flat_poly. cbn [gp_ext gp_ints]. rewrite map_app. cbn [map app]. rewrite <- app_assoc. reflexivity.
Qed.

Lemma group_rings_flat_all rings : Forall ring_closed rings -> outer_first rings ->
  flat_polys (group_rings rings None []) = rings.
Proof. intros Hc Hf. rewrite group_rings_flat by auto. reflexivity. Qed.

(** A shapefile ring as the conversion hands it to the grouping loop. *)
Definition view (r : role * list pt) : bool * list Geo.coord := (role_is_outer (fst r), map xy (snd r)).
