(** C11, last clause: what composing the committed crash states with the reader
    needs.  The shapes committed by a finalize are a prefix of those accepted
    later, so their records, declared words and type are bounded by the later
    ones; and behind a well-formed header the reader yields every record that
    is both retained and declared. *)
From SF Require Import Model.Bytes Model.Shapes Model.Res Model.Encode Model.Writer Model.Prog Model.Reader
  Spec.Esri Spec.Denote Spec.Layout.
From SF Require Import Proofs.BytesLemmas Proofs.ProgLemmas Proofs.ReaderSeq Proofs.WriterInv
  Proofs.EncodeRef Proofs.RoundTrip
  Proofs.CrashRead Proofs.CrashCommit.
Open Scope Z_scope.

Lemma accepted_acc_app ss cs1 cs2 : accepted_acc ss (cs1 ++ cs2) = accepted_acc (accepted_acc ss cs1) cs2.
Proof.
  revert ss; induction cs1 as [|c cs1 IH]; intros ss; [reflexivity|].
  destruct c as [s| |]; cbn [app accepted_acc]; [destruct (accepts_type ss s); apply IH|apply IH|apply IH].
Qed.

Lemma accepted_acc_lpre ss cs : lpre ss (accepted_acc ss cs).
Proof.
  revert ss; induction cs as [|c cs IH]; intros ss; [apply lpre_refl|].
  destruct c as [s| |]; cbn [accepted_acc]; [|apply IH|apply IH].
  destruct (accepts_type ss s); [|apply IH]. eapply lpre_trans; [|apply IH]. exists [s]. reflexivity.
Qed.

(** The world (both destinations) after the calls [cs] on a fresh writer. *)
Definition shp_after (hs : bool) (cs : list wcall) : world := snd (run_calls cs (w_new hs) world0).

Lemma committed_records_ref (ss0 x : list shape) :
  ref_records_bytes (firstn (length ss0) (numbered 1 (map rec_of_shape (ss0 ++ x)))) = records_from 1 ss0.
Proof.
  rewrite firstn_numbered, firstn_map, <- (Nat.add_0_r (length ss0)), firstn_app_2. cbn [firstn]. rewrite app_nil_r.
  symmetry. apply records_is_ref.
Qed.

Lemma file_words_app a b : file_words (a ++ b) = file_words a + sum_Z (map (fun s => record_words s + 4) b).
Proof. unfold file_words. rewrite map_app, sum_Z_app. lia. Qed.

Lemma file_words_lpre a b : lpre a b -> file_words a <= file_words b.
Proof. intros [x ->]. rewrite file_words_app. pose proof (sum_words_nonneg x). lia. Qed.

Lemma FileFits_lpre a b : lpre a b -> FileFits b -> FileFits a.
Proof. intros H Hf. unfold FileFits in *. pose proof (file_words_lpre a b H). lia. Qed.

Lemma file_type_lpre a b : a <> [] -> lpre a b -> file_type b = file_type a.
Proof. intros Hne [x ->]. destruct a; [contradiction|reflexivity]. Qed.

Lemma box8_length b : length (box8 b) = 8%nat.
Proof. reflexivity. Qed.

Lemma crash_read_ref_header req t box len rs (m fuel : nat) :
  length box = 8%nat -> Forall f64_ok box -> 0 <= len < two31 ->
  Forall (record_ok req) rs -> (m <= length (ref_records_bytes rs))%nat -> zlen (ref_records_bytes rs) < two31 * 4 ->
  exists j tail ended st' s',
    run (st <-- r_new ;; it_pull fuel req st) (src_of (ref_header t box len ++ firstn m (ref_records_bytes rs)))
    = (Ok (map (fun nr => Ok (denote (snd nr))) (firstn j rs) ++ tail, ended, st'), s') /\
    (tail = [] \/ tail = [Err EIoEof]) /\
    forall n, (n <= fuel)%nat -> (n <= length rs)%nat -> zlen (ref_records_bytes (firstn n rs)) <= Z.of_nat m ->
      100 + zlen (ref_records_bytes (firstn n rs)) <= len * 2 -> (n <= j)%nat.
Proof.
  intros Lb Fb Hl Hrecs Hm HR. set (data := _ ++ _).
  (* reading the header succeeds: this excludes the first case of
     [crash_read_noindex_lb] and names the header in the second *)
  destruct (reads_header t box len Lb Fb ltac:(unfold in_i32, two31 in *; lia) (src_of data) _ (clean_src_of data) eq_refl)
    as (s2 & Eh2 & _).
  pose proof (zlen_ref_header t box len Lb) as Z.
  destruct (crash_read_noindex_lb req (ref_header t box len) rs (Z.of_nat m) fuel ltac:(unfold zlen in Z; lia) Hrecs
              ltac:(unfold zlen; lia) HR)
    as [(e0 & s' & Eh & _)|(h & s1 & j & tail & ended & st' & s' & Eh & Er & Ht & Hlb)];
    rewrite Nat2Z.id in *; fold data in Eh; rewrite Eh in Eh2; [discriminate|].
  injection Eh2 as -> _. cbn [header_of h_len] in Hlb. rewrite Z.max_r in Hlb by lia.
  exists j, tail, ended, st', s'. auto.
Qed.
