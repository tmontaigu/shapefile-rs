(** The observables in which C01 says what survives a write-then-read round
    trip, and the two facts about [on_read] (defined in LayoutConf.v) its
    clauses are read off from: which vertices come back, and that the
    orientation test sees X and Y only. *)
From SF Require Import Model.Bytes Model.F64 Model.Shapes Model.F64Arith.
From SF Require Import Proofs.LayoutConf.
Open Scope Z_scope.

Definition xyz_of (d : dim) (p : pt) : f64 * f64 * f64 := (px p, py p, if has_z_dim d then pz p else 0).
Definition m_of (d : dim) (p : pt) : f64 := if has_m_dim d then pm p else 0.

Definition shape_box (s : shape) : option bbox :=
  match s with
  | SMultipoint _ b _ | SPolyline _ b _ | SPolygon _ b _ | SMultipatch b _ => Some b
  | _ => None
  end.

Definition patch_kinds (s : shape) : list pkind :=
  match s with SMultipatch _ ps => map fst ps | _ => [] end.

Definition is_point (s : shape) : bool := match s with SPoint _ _ => true | _ => false end.

Lemma map_map_ext {A B C} (f : A -> B) (g : B -> C) (h : A -> C) (l : list (list A)) :
  (forall x, g (f x) = h x) -> map (map g) (map (map f) l) = map (map h) l.
Proof.
  intros H. rewrite map_map. apply map_ext. intros ps. rewrite map_map. apply map_ext. exact H.
Qed.

Lemma shape_parts_on_read s :
  shape_parts (on_read s)
  = map (map (if is_point s then clean_pt (shape_dim s) else norm_pt (shape_dim s))) (shape_parts s).
Proof.
  destruct s as [|d p|d b ps|d b parts|d b rings|b patches]; cbn [on_read shape_parts shape_dim is_point map];
    rewrite ?map_map; reflexivity.
Qed.

Lemma shoelace_terms_norm d ps : shoelace_terms (map (norm_pt d) ps) = shoelace_terms ps.
Proof.
  induction ps as [|p0 r IH]; [reflexivity|]. destruct r as [|p1 r']; [reflexivity|].
  change (shoelace_terms (map (norm_pt d) (p0 :: p1 :: r')))
    with (fmul (fsub (px p1) (px p0)) (fadd (py p1) (py p0)) :: shoelace_terms (map (norm_pt d) (p1 :: r'))).
  rewrite IH. reflexivity.
Qed.

Lemma ring_role_norm d ps : ring_role (map (norm_pt d) ps) = ring_role ps.
Proof. unfold ring_role, ring_is_inner, shoelace_area. rewrite shoelace_terms_norm. reflexivity. Qed.

(** Single points only: a Point whose absent dimensions are +0.0 (what every
    constructor and the harness build) is read back as it is, measure included
    ([on_read] normalises measures of multi-vertex shapes only). *)
Definition clean_point (d : dim) (p : pt) : Prop := clean_pt d p = p.

Theorem on_read_point d p : clean_point d p -> on_read (SPoint d p) = SPoint d p.
Proof. intros H. cbn [on_read]. rewrite H. reflexivity. Qed.
