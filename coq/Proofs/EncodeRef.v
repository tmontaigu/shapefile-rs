(** The library's encoder emits the whitepaper layout: for every shape value,
    type code + `write_to` output = [ref_content] of the record the value
    should be stored as (Spec/Layout.v); hence the files of the writer are
    [ref_shp] / [ref_shx] of the layout of the accepted shapes (C02, C04).
    [FileFits], the guard of every theorem about whole files, is defined here
    with [file_words] and [file_type]. *)
From SF Require Import Model.Bytes Model.F64 Model.ShapeType Model.Shapes Model.Encode Model.Writer
  Spec.Esri Spec.Layout.
From SF Require Import Proofs.BytesLemmas Proofs.SizeProofs Proofs.WriterInv.
Open Scope Z_scope.

(* Global, so in force in every importer: [cbn] and [simpl] leave the codecs folded instead of
   turning them into byte arithmetic. *)
Arguments f64_enc : simpl never.
Arguments i32_le : simpl never.
Arguments i32_be : simpl never.

Lemma part_offsets_running acc lens : part_offsets acc lens = running_offsets acc lens.
Proof. revert acc; induction lens as [|l r IH]; intros acc; cbn; [reflexivity|]. rewrite IH. reflexivity. Qed.

Lemma zlen_running acc lens : zlen (running_offsets acc lens) = zlen lens.
Proof. rewrite <- part_offsets_running. apply zlen_part_offsets. Qed.

Lemma concat_xy_chunks ps :
  concat (xy_chunks ps) = flat_map (fun p => f64_enc (fst p) ++ f64_enc (snd p)) (map xy_of ps).
Proof.
  induction ps as [|p r IH]; [reflexivity|].
  unfold xy_chunks in *. cbn [flat_map map concat app]. rewrite IH.
  unfold xy_of. cbn [fst snd]. rewrite <- app_assoc. reflexivity.
Qed.

Lemma concat_map_f64 {A} (f : A -> f64) (l : list A) : concat (map (fun p => f64_enc (f p)) l) = f64s (map f l).
Proof. induction l as [|p r IH]; [reflexivity|]. cbn [map concat]. rewrite IH. reflexivity. Qed.

Lemma concat_map_i32 l : concat (map i32_le l) = i32s l.
Proof. induction l as [|x r IH]; [reflexivity|]. cbn [map concat]. rewrite IH. reflexivity. Qed.

Lemma concat_bbox_xy b : concat (bbox_xy_chunks b) = f64s [px (bmin b); py (bmin b); px (bmax b); py (bmax b)].
Proof. unfold bbox_xy_chunks, f64s. cbn [concat flat_map]. reflexivity. Qed.

Lemma concat_tail d b parts :
  concat (multipart_tail d b parts)
  = flat_map (fun p => f64_enc (fst p) ++ f64_enc (snd p)) (map xy_of (concat parts))
    ++ (if has_z_dim d then f64s [pz (bmin b); pz (bmax b)] ++ f64s (map pz (concat parts)) else [])
    ++ (if has_m_dim d then f64s [pm (bmin b); pm (bmax b)] ++ f64s (map pm (concat parts)) else []).
Proof.
  rewrite multipart_tail_concat, !concat_app, concat_xy_chunks. f_equal. f_equal.
  - destruct (has_z_dim d); [|reflexivity]. rewrite concat_app. f_equal. apply (concat_map_f64 pz).
  - destruct (has_m_dim d); [|reflexivity]. rewrite concat_app. f_equal. apply (concat_map_f64 pm).
Qed.

Lemma concat_head b parts :
  concat (multipart_head b parts)
  = f64s [px (bmin b); py (bmin b); px (bmax b); py (bmax b)]
    ++ i32_le (zlen parts) ++ i32_le (zlen (concat parts)) ++ i32s (running_offsets 0 (map (fun p => zlen p) parts)).
Proof.
  unfold multipart_head. rewrite !concat_app, concat_bbox_xy, concat_map_i32, part_offsets_running, total_points_concat.
  cbn [concat]. rewrite !app_nil_r. reflexivity.
Qed.

Lemma type_of_flags s :
  st_has_z (type_of s) = has_z_dim (shape_dim s) /\ layout_has_m (type_of s) = has_m_dim (shape_dim s).
Proof. destruct s; try destruct d; split; reflexivity. Qed.

Lemma has_dims_multipoint d : st_has_z (multipoint_type d) = has_z_dim d /\ layout_has_m (multipoint_type d) = has_m_dim d
  /\ is_multipoint_type (multipoint_type d) = true.
Proof. destruct d; repeat split; reflexivity. Qed.

Lemma multipoint_is_ref t d b ps :
  st_has_z t = has_z_dim d -> layout_has_m t = has_m_dim d -> is_multipoint_type t = true ->
  concat (multipoint_chunks d b ps) = ref_body_bytes t (body_of t b [ps] []).
Proof.
  intros Hz Hm Hp. unfold ref_body_bytes, body_of.
  cbn [rb_box rb_offsets rb_kinds rb_pts rb_z rb_m]. rewrite Hz, Hm, Hp.
  rewrite multipoint_chunks_tail, !concat_app, concat_bbox_xy, concat_tail, zlen_map.
  cbn [concat]. rewrite !app_nil_r. destruct (has_z_dim d), (has_m_dim d); reflexivity.
Qed.

Lemma multipart_is_ref t d b parts kinds :
  st_has_z t = has_z_dim d -> layout_has_m t = has_m_dim d -> is_multipoint_type t = false ->
  (st_eqb t TMultipatch = false -> kinds = []) ->
  concat (multipart_head b parts ++ map i32_le kinds ++ multipart_tail d b parts)
  = ref_body_bytes t (body_of t b parts kinds).
Proof.
  intros Hz Hm Hp Hk. unfold ref_body_bytes, body_of.
  cbn [rb_box rb_offsets rb_kinds rb_pts rb_z rb_m]. rewrite Hz, Hm, Hp.
  rewrite !concat_app, concat_head, concat_tail, concat_map_i32, zlen_running, !zlen_map.
  rewrite <- ?app_assoc. do 4 f_equal. f_equal.
  - destruct (st_eqb t TMultipatch); [reflexivity|]. rewrite Hk; reflexivity.
  - destruct (has_z_dim d), (has_m_dim d); reflexivity.
Qed.

Theorem content_is_ref (s : shape) :
  i32_le (st_code (type_of s)) ++ content_bytes s = ref_content (rec_of_shape s).
Proof.
  unfold ref_content, content_bytes. destruct (type_of_flags s) as [Hz Hm].
  destruct s as [|d p|d b ps|d b parts|d b rings|b patches];
    cbn [rec_of_shape ref_type type_of ref_fields content_chunks shape_dim] in *.
  - reflexivity.
  - destruct d; cbn [rec_of_shape ref_type point_type ref_fields point_chunks concat f64s flat_map];
      rewrite ?app_nil_r; reflexivity.
  - f_equal. apply multipoint_is_ref; [exact Hz|exact Hm|destruct d; reflexivity].
  - f_equal. apply (multipart_is_ref _ d b parts []); [exact Hz|exact Hm|destruct d; reflexivity|reflexivity].
  - f_equal. apply (multipart_is_ref _ d b (map snd rings) []); [exact Hz|exact Hm|destruct d; reflexivity|reflexivity].
  - f_equal. rewrite <- (map_map (fun p => pkind_code (fst p)) i32_le).
    apply (multipart_is_ref _ XYZM); [exact Hz|exact Hm|reflexivity|discriminate].
Qed.

Lemma i32_be_wrap i : i32_be (wrap_i32 i) = i32_be i.
Proof.
  unfold i32_be. f_equal. unfold wrap_i32, to_i32, two31, two32.
  destruct (i mod 4294967296 <? 2147483648) eqn:E; Z.div_mod_to_equations; lia.
Qed.

Lemma size_in_bytes_nonneg s : 0 <= size_in_bytes s.
Proof. rewrite <- size_in_bytes_correct. apply zlen_nonneg. Qed.

Lemma zlen_ref_content_shape s : zlen (ref_content (rec_of_shape s)) = 4 + size_in_bytes s.
Proof. rewrite <- content_is_ref, zlen_app, zlen_i32_le, size_in_bytes_correct. reflexivity. Qed.

Lemma record_words_ref s : record_words s = zlen (ref_content (rec_of_shape s)) / 2.
Proof. rewrite zlen_ref_content_shape. unfold record_words. f_equal. lia. Qed.

Lemma record_words_ge2 s : 2 <= record_words s.
Proof. pose proof (record_words_double s). pose proof (size_in_bytes_nonneg s). lia. Qed.

Lemma record_is_ref i s : record_bytes (type_of s) (wrap_i32 i) s = ref_record i (rec_of_shape s).
Proof.
  unfold record_bytes, record_chunks, record_header_chunks, ref_record.
  cbn [app concat]. rewrite i32_be_wrap, <- record_words_ref, <- content_is_ref.
  unfold content_bytes. rewrite <- ?app_assoc. reflexivity.
Qed.

Lemma records_is_ref i ss : records_from i ss = ref_records_bytes (numbered i (map rec_of_shape ss)).
Proof.
  revert i; induction ss as [|s r IH]; intros i; [reflexivity|].
  cbn [records_from map numbered]. unfold ref_records_bytes in *. cbn [flat_map fst snd].
  rewrite IH, record_is_ref. reflexivity.
Qed.

Lemma header_is_ref h : h_version h = 1000 ->
  header_bytes h = ref_header (h_type h) (box8 (h_box h)) (h_len h).
Proof.
  intros Hv. unfold header_bytes, header_chunks, ref_header, box8, f64s. rewrite Hv.
  cbn [concat flat_map]. rewrite <- ?app_assoc. reflexivity.
Qed.

(** Length of the file in 16-bit words, computed without wrapping. *)
Definition file_words (ss : list shape) : Z := 50 + sum_Z (map (fun s => record_words s + 4) ss).
(** The guard of the theorems: the file length fits its i32 field. *)
Definition FileFits (ss : list shape) : Prop := file_words ss < two31.

Lemma sum_words_ge ss : 6 * zlen ss <= sum_Z (map (fun s => record_words s + 4) ss).
Proof. induction ss as [|s r IH]; cbn [map sum_Z]; [change (zlen (@nil shape)) with 0; lia|]. rewrite zlen_cons. pose proof (record_words_ge2 s). lia. Qed.

Lemma sum_words_nonneg ss : 0 <= sum_Z (map (fun s => record_words s + 4) ss).
Proof. pose proof (sum_words_ge ss). pose proof (zlen_nonneg ss). lia. Qed.

Lemma wrap_i32_id z : in_i32 z -> wrap_i32 z = z.
Proof. intros H. unfold wrap_i32. apply to_i32_wrap, H. Qed.

Lemma FileFits_each ss : FileFits ss -> Forall (fun s => record_words s < two31) ss.
Proof.
  unfold FileFits, file_words. induction ss as [|s r IH]; intros H; constructor.
  - cbn [map sum_Z] in H. pose proof (sum_words_nonneg r). unfold two31 in *. lia.
  - apply IH. cbn [map sum_Z] in H. pose proof (record_words_ge2 s). lia.
Qed.

Lemma FileFits_words ss : FileFits ss -> Forall (fun s => wrap_i32 (record_words s) = record_words s) ss.
Proof.
  intros H. eapply Forall_impl; [|exact (FileFits_each ss H)]. cbv beta. intros s Hs.
  pose proof (record_words_ge2 s). apply wrap_i32_id. unfold in_i32, two31 in *. lia.
Qed.

Lemma len_after_sum off ss : Forall (fun s => wrap_i32 (record_words s) = record_words s) ss ->
  len_after off ss = off + sum_Z (map (fun s => record_words s + 4) ss).
Proof.
  unfold len_after. revert off; induction ss as [|s r IH]; intros off H; cbn [fold_left map sum_Z]; [lia|].
  inversion H as [|? ? Hs Hr]; subst. rewrite IH by exact Hr. rewrite Hs. lia.
Qed.

Lemma zlen_records_from i ss : zlen (records_from i ss) = 2 * sum_Z (map (fun s => record_words s + 4) ss).
Proof.
  revert i; induction ss as [|s r IH]; intros i; cbn [records_from map sum_Z]; [reflexivity|].
  rewrite zlen_app, IH, record_bytes_length. lia.
Qed.

Lemma file_words_records i ss : (100 + zlen (records_from i ss)) / 2 = file_words ss.
Proof. rewrite zlen_records_from. unfold file_words. Z.div_mod_to_equations. lia. Qed.

Definition file_type (ss : list shape) : shape_type := match ss with [] => TNull | s0 :: _ => type_of s0 end.

Lemma fold_hdr_step_version l h : h_version (fold_left hdr_step l h) = h_version h.
Proof. revert h; induction l as [|x l IH]; intros h; cbn [fold_left]; [reflexivity|]. rewrite IH. reflexivity. Qed.

Lemma hdr_after_version ss : h_version (hdr_after ss) = 1000.
Proof. unfold hdr_after. destruct ss as [|s0 r]; [reflexivity|]. rewrite fold_hdr_step_version. reflexivity. Qed.

(** Both files carry the header of the accepted shapes; only the length differs. *)
Lemma final_hdr_set_len_is_ref ss len :
  header_bytes (set_len (final_hdr ss) len) = ref_header (file_type ss) (box8 (h_box (final_hdr ss))) len.
Proof.
  rewrite header_is_ref by apply hdr_after_version. unfold final_hdr. cbn [set_len set_box h_type h_box h_len].
  rewrite hdr_after_type. reflexivity.
Qed.

Lemma final_hdr_ref ss : FileFits ss ->
  header_bytes (final_hdr ss) = ref_header (file_type ss) (box8 (h_box (final_hdr ss))) (file_words ss).
Proof.
  intros Hf.
  (* [final_hdr ss] is a [mkhdr]: setting its own length again is the identity by computation *)
  change (header_bytes (final_hdr ss)) with (header_bytes (set_len (final_hdr ss) (h_len (final_hdr ss)))).
  rewrite final_hdr_set_len_is_ref. f_equal. unfold final_hdr. cbn [set_box h_len].
  rewrite hdr_after_len. apply len_after_sum, FileFits_words, Hf.
Qed.

Theorem final_shp_is_ref ss : FileFits ss ->
  final_shp ss = ref_shp (layout (file_type ss) (h_box (final_hdr ss)) ss).
Proof.
  intros Hf. unfold final_shp, ref_shp, layout. cbn [rf_type rf_box rf_records].
  rewrite <- records_is_ref, file_words_records, final_hdr_ref by exact Hf. reflexivity.
Qed.

Lemma index_is_ref off i ss : Forall (fun s => wrap_i32 (record_words s) = record_words s) ss ->
  index_from off ss
  = flat_map (fun e => i32_be (fst e) ++ i32_be (snd e)) (ref_index_entries off (numbered i (map rec_of_shape ss))).
Proof.
  revert off i; induction ss as [|s r IH]; intros off i H; [reflexivity|].
  inversion H as [|? ? Hs Hr]; subst.
  cbn [index_from map numbered ref_index_entries flat_map fst snd]. rewrite Hs, <- record_words_ref.
  unfold index_entry_chunks. cbn [concat]. rewrite app_nil_r. f_equal.
  rewrite (IH _ (i + 1) Hr). do 2 f_equal. lia.
Qed.

Lemma zlen_ref_index_entries off rs : zlen (ref_index_entries off rs) = zlen rs.
Proof.
  revert off; induction rs as [|[n r] rest IH]; intros off; [reflexivity|].
  cbn [ref_index_entries]. rewrite !zlen_cons, IH. reflexivity.
Qed.

Lemma map_snd_numbered i rs : map snd (numbered i rs) = rs.
Proof. revert i; induction rs as [|r rest IH]; intros i; [reflexivity|]. cbn [numbered map snd]. rewrite IH. reflexivity. Qed.

Lemma numbered_length i rs : length (numbered i rs) = length rs.
Proof. rewrite <- (map_length snd), map_snd_numbered. reflexivity. Qed.

Lemma zlen_numbered i rs : zlen (numbered i rs) = zlen rs.
Proof. unfold zlen. rewrite numbered_length. reflexivity. Qed.

Theorem final_shx_is_ref ss : FileFits ss ->
  final_shx ss = ref_shx (layout (file_type ss) (h_box (final_hdr ss)) ss).
Proof.
  intros Hf. unfold final_shx, final_shx_hdr, ref_shx, ref_shx_of, layout. cbn [rf_type rf_box rf_records].
  rewrite (index_is_ref 50 1) by (apply FileFits_words, Hf). rewrite final_hdr_set_len_is_ref. do 2 f_equal.
  rewrite zlen_ref_index_entries, zlen_numbered, zlen_map.
  pose proof (sum_words_ge ss). pose proof (zlen_nonneg ss). unfold FileFits, file_words in Hf.
  rewrite wrap_i32_id by (unfold in_i32, two31 in *; lia). rewrite Z.quot_div_nonneg by lia. Z.div_mod_to_equations. lia.
Qed.
