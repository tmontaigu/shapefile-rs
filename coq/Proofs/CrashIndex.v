(** C11, the route through the index: a reader opened with ANY index whose
    entries address records of a file, on ANY truncation of that file, yields
    for every index entry either the record it addresses (when the record
    lies wholly inside the retained bytes) or an UnexpectedEof error: never a
    shape that is not in the file, never a reordered one, never a panic. *)
From SF Require Import Model.Bytes Model.Shapes Model.Res Model.Encode Model.Prog Model.Decode Model.Reader
  Spec.Esri Spec.Denote.
From SF Require Import Proofs.BytesLemmas Proofs.ProgLemmas Proofs.RecordL1 Proofs.ReaderSeq
  Proofs.ReaderRobust Proofs.IndexReader Proofs.IndexFiles Proofs.CrashRead.
Open Scope Z_scope.

(** What the index entry [e], which addresses the record [nr], is answered with when the file is cut at byte [K]. *)
Definition item_at (K : Z) (e : Z * Z) (nr : Z * ref_rec) : res shape :=
  if fst e * 2 + zlen (ref_record (fst nr) (snd nr)) <=? K then Ok (denote (snd nr)) else Err EIoEof.

Definition items_all (K : Z) (idx : list (Z * Z)) (recs : list (Z * ref_rec)) : list (res shape) :=
  map (fun p => item_at K (fst p) (snd p)) (combine idx recs).

Theorem crash_read_index req data idx recs K fuel :
  Indexed req data idx recs -> 0 <= K ->
  let cut := firstn (Z.to_nat K) data in
  (exists r s', run (r_with_shx idx) (src_of cut) = (r, s') /\ forall st, r <> Ok st) \/
  (exists st' s',
     run (st <-- r_with_shx idx ;; it_pull fuel req st) (src_of cut)
     = (Ok (firstn fuel (items_all K idx recs), (length (items_all K idx recs) <? fuel)%nat, st'), s')).
Proof.
  intros HI HK cut. destruct (run read_header (src_of cut)) as [[h|e|] s1] eqn:Eh;
    [right|left; apply (open_fails (fun h => mkr h (Some idx) 100 0) _ _ _ Eh); discriminate..].
  unfold r_with_shx. rewrite run_bind, run_bind, Eh. destruct (read_header_src_of _ _ _ Eh) as (Hc1 & P3 & P1 & _).
  assert (Hinv : RInv cut idx (mkr h (Some idx) 100 0) s1).
  { constructor; [exact Hc1|exact P3|reflexivity|left; symmetry; exact P1|cbn [r_next]; pose proof (zlen_nonneg idx); lia]. }
  destruct (it_pull_index_cut req data K idx recs HI fuel _ s1 0%nat Hinv eq_refl) as (st' & s' & Hrun & _).
  exists st', s'. exact Hrun.
Qed.

Definition index_bytes (entries : list (Z * Z)) : bytes := flat_map entry_bytes entries.

Lemma entry_bytes_len e : length (entry_bytes e) = 8%nat.
Proof. unfold entry_bytes. rewrite app_length, !i32_be_length. reflexivity. Qed.

Lemma consumes_entry : consumes entry_prog 8.
Proof. exact consumes_record_header. Qed.

Lemma read_entries_prefix : forall n entries (mx : nat) s l s',
  clean s -> s_rest s = firstn mx (index_bytes entries) ->
  Forall (fun e => in_i32 (fst e) /\ in_i32 (snd e)) entries ->
  run (rep_nat n entry_prog) s = (Ok l, s') -> l = firstn n entries /\ (n <= length entries)%nat.
Proof.
  induction n as [|n IH]; intros entries mx s l s' Hcl Hr He H.
  - cbn [rep_nat run] in H. injection H as <- _. split; [reflexivity|lia].
  - cbn [rep_nat] in H. rewrite run_bind in H. destruct (run entry_prog s) as [[e|er|] s1] eqn:E1; try discriminate.
    destruct (consumes_entry s e s1 Hcl E1) as (Hc1 & D1 & P1 & P4). specialize (P4 ltac:(lia)).
    (* 8 bytes were available: the stream holds a whole first entry *)
    assert (L8 : (8 <= length (s_rest s))%nat).
    { rewrite s_rest_skipn, skipn_length. destruct Hcl as [_ Hp]. unfold zlen in P4. lia. }
    rewrite Hr in L8. destruct entries as [|e0 es].
    { cbn in L8. rewrite firstn_nil in L8. cbn in L8. lia. }
    inversion He as [|? ? [He1 He2] Hes]; subst.
    unfold index_bytes in Hr, L8. cbn [flat_map] in Hr, L8. fold (index_bytes es) in Hr, L8.
    assert (Hmx : (8 <= mx)%nat).
    { rewrite firstn_length, app_length, entry_bytes_len in L8. lia. }
    rewrite firstn_app, entry_bytes_len in Hr. rewrite (firstn_all2 (entry_bytes e0)) in Hr by (rewrite entry_bytes_len; exact Hmx).
    destruct (reads_entry e0 He1 He2 s _ Hcl Hr) as (s1' & R1 & Hc1' & D1' & P1').
    rewrite R1 in E1. injection E1 as <- <-.
    rewrite run_bind in H. destruct (run (rep_nat n entry_prog) s1') as [[l1|er|] s2] eqn:E2; try discriminate.
    cbn [run] in H. injection H as <- _.
    assert (Hr1 : s_rest s1' = firstn (mx - 8) (index_bytes es)).
    { eapply rest_after; [apply Hcl|exact D1'|exact P1'|exact Hr]. }
    destruct (IH es (mx - 8)%nat s1' l1 s2 Hc1' Hr1 Hes E2) as [-> Hn].
    split; [reflexivity|cbn [length]; lia].
Qed.

Theorem read_index_crash (hb : bytes) (entries : list (Z * Z)) (mx : nat) idx s' :
  length hb = 100%nat -> Forall (fun e => in_i32 (fst e) /\ in_i32 (snd e)) entries ->
  run read_index_file (src_of (hb ++ firstn mx (index_bytes entries))) = (Ok idx, s') ->
  exists c, idx = firstn c entries /\ (c <= length entries)%nat.
Proof.
  intros Hhb He H. unfold read_index_file in H. set (data := hb ++ firstn mx (index_bytes entries)) in *.
  rewrite run_bind in H. destruct (run read_header (src_of data)) as [[h|e|] s1] eqn:Eh; try discriminate.
  destruct (read_header_src_of _ _ _ Eh) as (Hc1 & P3 & P1 & _).
  cbv zeta in H. set (n := index_entries_declared (h_len h)) in *.
  rewrite run_bind in H. unfold reserve in H. cbn [run] in H.
  set (s2 := do_reserve (capacity_for n * 8) s1) in *.
  assert (Hc2 : clean s2) by exact Hc1.
  assert (Hr2 : s_rest s2 = firstn mx (index_bytes entries)).
  { change (s_rest s2) with (s_rest s1). rewrite s_rest_skipn, P3, P1. apply skipn_app_length, Hhb. }
  assert (Hn : n = Z.of_nat (Z.to_nat n)) by (unfold n, index_entries_declared; lia).
  fold entry_prog in H.
  assert (Er : run (rep_Z n entry_prog) s2 = run (rep_nat (Z.to_nat n) entry_prog) s2) by (rewrite Hn at 1; apply rep_Z_nat).
  rewrite Er in H.
  destruct (read_entries_prefix (Z.to_nat n) entries mx s2 idx s' Hc2 Hr2 He H) as [-> Hle].
  exists (Z.to_nat n). split; [reflexivity|exact Hle].
Qed.

Lemma items_all_beyond K : forall rs off, K < off * 2 ->
  items_all K (ref_index_entries off rs) rs = map (fun _ => Err EIoEof) rs.
Proof.
  induction rs as [|[num r] rs IH]; intros off HK; [reflexivity|].
  cbn [ref_index_entries]. unfold items_all. cbn [combine map fst snd]. fold (items_all K (ref_index_entries (off + 4 + zlen (ref_content r) / 2) rs) rs).
  unfold item_at at 1. cbn [fst snd]. pose proof (zlen_nonneg (ref_record num r)).
  destruct (Z.leb_spec (off * 2 + zlen (ref_record num r)) K); [lia|]. f_equal.
  apply IH. pose proof (zlen_nonneg (ref_content r)). lia.
Qed.

Theorem items_all_ordered K : forall rs off,
  exists j, items_all K (ref_index_entries off rs) rs
            = map (fun nr => Ok (denote (snd nr))) (firstn j rs) ++ map (fun _ => Err EIoEof) (skipn j rs).
Proof.
  induction rs as [|[num r] rs IH]; intros off; [exists 0%nat; reflexivity|].
  pose proof (ref_content_even r) as Hev. pose proof (zlen_nonneg (ref_content r)) as Hnn.
  destruct (Z.le_gt_cases (off * 2 + zlen (ref_record num r)) K) as [Hin|Hout].
  - destruct (IH (off + 4 + zlen (ref_content r) / 2)) as (j & Ej). exists (S j).
    cbn [ref_index_entries]. unfold items_all. cbn [combine map fst snd firstn skipn app].
    fold (items_all K (ref_index_entries (off + 4 + zlen (ref_content r) / 2) rs) rs). rewrite Ej.
    unfold item_at. cbn [fst snd]. destruct (Z.leb_spec (off * 2 + zlen (ref_record num r)) K); [reflexivity|lia].
  - exists 0%nat. cbn [firstn skipn map app]. rewrite zlen_ref_record in Hout.
    cbn [ref_index_entries]. unfold items_all. cbn [combine map fst snd].
    fold (items_all K (ref_index_entries (off + 4 + zlen (ref_content r) / 2) rs) rs).
    rewrite items_all_beyond by lia.
    unfold item_at. cbn [fst snd]. rewrite zlen_ref_record. destruct (Z.leb_spec (off * 2 + (8 + zlen (ref_content r))) K); [lia|reflexivity].
Qed.

Lemma firstn_ref_index_entries c : forall rs off, firstn c (ref_index_entries off rs) = ref_index_entries off (firstn c rs).
Proof.
  induction c as [|c IH]; intros rs off; [reflexivity|]. destruct rs as [|[num r] rs]; [reflexivity|].
  cbn [ref_index_entries firstn]. rewrite IH. reflexivity.
Qed.

Lemma ref_records_bytes_app a b : ref_records_bytes (a ++ b) = ref_records_bytes a ++ ref_records_bytes b.
Proof. unfold ref_records_bytes. apply flat_map_app. Qed.
