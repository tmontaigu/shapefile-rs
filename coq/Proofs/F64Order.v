(** Order facts about the comparisons on f64 bit patterns, and lemma L5 of
    DESIGN.md ([fold_pick_like]): folding `f64_min` / `f64_max` over non-NaN
    values returns one of the values (bitwise) that is below / above every one
    of them.  Minimum and maximum are the same notion for the orders [f64_le]
    and [f64_ge]. *)
From SF Require Import Model.Bytes Model.F64.
Open Scope Z_scope.

Definition nn (a : f64) : Prop := f64_is_nan a = false.

Lemma f64_le_refl a : nn a -> f64_le a a = true.
Proof. unfold nn, f64_le. intros ->. cbn. apply Z.leb_refl. Qed.

Lemma f64_le_trans a b c : f64_le a b = true -> f64_le b c = true -> f64_le a c = true.
Proof.
  unfold f64_le. intros H1 H2.
  apply andb_prop in H1. destruct H1 as [H1 K1]. apply andb_prop in H1. destruct H1 as [Na Nb].
  apply andb_prop in H2. destruct H2 as [H2 K2]. apply andb_prop in H2. destruct H2 as [_ Nc].
  rewrite Na, Nc. cbn. apply Z.leb_le in K1, K2. apply Z.leb_le. lia.
Qed.

Lemma f64_ge_trans a b c : f64_ge a b = true -> f64_ge b c = true -> f64_ge a c = true.
Proof. intros H1 H2. exact (f64_le_trans c b a H2 H1). Qed.

Lemma f64_lt_false_le a b : nn a -> nn b -> f64_lt a b = false -> f64_le b a = true.
Proof.
  unfold nn, f64_lt, f64_le. intros -> -> H. cbn in *. apply Z.ltb_ge in H. apply Z.leb_le. lia.
Qed.

Lemma f64_lt_le a b : f64_lt a b = true -> f64_le a b = true.
Proof.
  unfold f64_lt, f64_le. intros H. apply andb_prop in H. destruct H as [H K]. rewrite H. cbn.
  apply Z.ltb_lt in K. apply Z.leb_le. lia.
Qed.

Lemma f64_le_nn a b : f64_le a b = true -> nn a /\ nn b.
Proof.
  unfold f64_le, nn. intros H. apply andb_prop in H. destruct H as [H _]. apply andb_prop in H. destruct H as [A B].
  destruct (f64_is_nan a), (f64_is_nan b); try discriminate; auto.
Qed.

Lemma f64_le_key a b : f64_le a b = true -> f64_key a <= f64_key b.
Proof. unfold f64_le. intros H. apply andb_prop in H. apply Z.leb_le, H. Qed.

Lemma f64_eq_key a b : f64_eq a b = true -> f64_key a = f64_key b.
Proof. unfold f64_eq. intros H. apply andb_prop in H. apply Z.eqb_eq, H. Qed.

Definition extreme_of (le : f64 -> f64 -> bool) (v : f64) (vals : list f64) : Prop :=
  In v vals /\ Forall (fun x => le v x = true) vals.

Lemma extreme_of_map {A} le v (g : A -> f64) l :
  extreme_of le v (map g l) <-> In v (map g l) /\ Forall (fun x => le v (g x) = true) l.
Proof. unfold extreme_of. rewrite Forall_map. reflexivity. Qed.

Definition pick_like (le : f64 -> f64 -> bool) (f : f64 -> f64 -> f64) : Prop :=
  forall a b, nn a -> nn b -> (f a b = a \/ f a b = b) /\ le (f a b) a = true /\ le (f a b) b = true.

Lemma pick_like_flip le f : pick_like le f -> pick_like le (fun a b => f b a).
Proof. intros Hf a b Na Nb. destruct (Hf b a Nb Na) as ([H|H] & H1 & H2); auto. Qed.

Section Order.
  Variables lt le : f64 -> f64 -> bool.
  Hypothesis le_refl : forall a, nn a -> le a a = true.
  Hypothesis le_trans : forall a b c, le a b = true -> le b c = true -> le a c = true.
  Hypothesis lt_le : forall a b, lt a b = true -> le a b = true.
  Hypothesis lt_false_le : forall a b, nn a -> nn b -> lt a b = false -> le b a = true.

  (** The shape of `f64_min` and `f64_max` (src/writer.rs). *)
  Lemma pick_like_if : pick_like le (fun a b => if lt a b then a else b).
  Proof.
    intros a b Na Nb. cbv beta. destruct (lt a b) eqn:E.
    - split; [left; reflexivity|]. split; [apply le_refl, Na|apply lt_le, E].
    - split; [right; reflexivity|]. split; [apply lt_false_le; assumption|apply le_refl, Nb].
  Qed.

  Theorem fold_pick_like f : pick_like le f -> forall l acc, nn acc -> Forall nn l ->
    extreme_of le (fold_left f l acc) (acc :: l).
  Proof.
    intros Hf. induction l as [|x l IH]; intros acc Na Hl; cbn [fold_left].
    - split; [left; reflexivity|]. constructor; [apply le_refl, Na|constructor].
    - inversion Hl as [|? ? Nx Hl']; subst.
      destruct (Hf acc x Na Nx) as (Hin & Hle1 & Hle2).
      assert (Nf : nn (f acc x)) by (destruct Hin as [-> | ->]; assumption).
      destruct (IH (f acc x) Nf Hl') as (Rin & Rall). inversion Rall as [|? ? R1 R2]; subst.
      split.
      + destruct Rin as [E|Rin]; [|right; right; exact Rin].
        rewrite <- E. destruct Hin as [-> | ->]; [left; reflexivity|right; left; reflexivity].
      + constructor; [eapply le_trans; eassumption|]. constructor; [eapply le_trans; eassumption|exact R2].
  Qed.
End Order.

Lemma pick_like_min : pick_like f64_le f64_min.
Proof. exact (pick_like_if f64_lt f64_le f64_le_refl f64_lt_le f64_lt_false_le). Qed.

Lemma pick_like_max : pick_like f64_ge f64_max.
Proof.
  exact (pick_like_if f64_gt f64_ge f64_le_refl (fun a b => f64_lt_le b a) (fun a b Na Nb => f64_lt_false_le b a Nb Na)).
Qed.
