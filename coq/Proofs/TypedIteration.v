(** For C06 at the level of whole files: the typed reader of type t over a
    conformant file (records of any types, in any mixture) yields
    [typed_items]: the records converted one by one, up to and including the
    first of another type — where, without an index, the iteration ends
    ([typed_iteration]); [collect_res] is what the bulk reads (`read_as`,
    `read`) make of the items.  That this is what the generic reader yields,
    converted, is C06_typed_is_generic_converted. *)
From SF Require Import Model.Bytes Model.ShapeType Model.Shapes Model.Res Model.Prog Model.Decode
  Model.Reader Model.Convert Spec.Esri Spec.Denote.
From SF Require Import Proofs.BytesLemmas Proofs.ShapeTypeProofs Proofs.ProgLemmas
  Proofs.ReaderSteps Proofs.ReaderSeq Proofs.TypedGeneric.
Open Scope Z_scope.

Lemma type_of_denote r : rec_conformant r -> type_of (denote r) = ref_type r.
Proof.
  destruct r as [| | | |t b]; try reflexivity. intros [Hm _]. destruct t; try discriminate Hm; reflexivity.
Qed.

Fixpoint typed_items (t : shape_type) (rs : list (Z * ref_rec)) : list (res shape) :=
  match rs with
  | [] => []
  | (_, r) :: rest =>
      if st_eqb (ref_type r) t then Ok (denote r) :: typed_items t rest
      else [Err (EMismatch t (ref_type r))]
  end.

Fixpoint cut_after_error (l : list (res shape)) : list (res shape) :=
  match l with
  | [] => []
  | Ok s :: r => Ok s :: cut_after_error r
  | x :: _ => [x]
  end.

Lemma typed_iteration t data : forall rs st s,
  seq_at data (zlen data) st s rs -> flen_bytes st = r_cur st + zlen (ref_records_bytes rs) ->
  Forall (record_ok None) rs ->
  exists st' s', run (it_pull (S (S (length rs))) (Some t) st) s = (Ok (typed_items t rs, true, st'), s').
Proof.
  induction rs as [|[num r] rs IH]; intros st s Hat Hlen Hok.
  - exists st, s. apply it_pull_end; [apply Hat|]. rewrite Hlen. cbn. lia.
  - inversion Hok as [|? ? Hok1 Hok2]; subst. pose proof Hok1 as (Hnum & Hc & Hsz & _). cbn [fst snd] in *.
    rewrite ref_records_cons, zlen_app in Hlen. cbn [fst snd] in Hlen.
    pose proof (ref_record_pos num r). pose proof (zlen_nonneg (ref_records_bytes rs)).
    cbn [typed_items length]. destruct (st_eqb (ref_type r) t) eqn:Et.
    + apply st_eqb_eq in Et.
      assert (Hokt : record_ok (Some t) (num, r)) by (split; [exact Hnum|split; [exact Hc|split; [exact Hsz|exact Et]]]).
      pose proof (seq_at_inside _ _ _ _ _ _ Hat) as Hin. cbn [fst snd] in Hin.
      pose proof (seq_step (Some t) _ _ st s num r rs Hat Hokt ltac:(lia)) as Hstep. cbv zeta in Hstep.
      destruct (Z.leb_spec (s_pos s + zlen (ref_record num r)) (zlen data)); [|lia].
      destruct Hstep as (s1 & Hat1 & _ & Hpull).
      destruct (IH _ s1 Hat1) as (st2 & s2 & Hrun2); [rewrite flen_bytes_set_cur; cbn [set_cur r_cur]; lia|exact Hok2|].
      exists st2, s2. exact (Hpull _ _ _ _ _ Hrun2).
    + (* another type: the typed read is the generic one followed by the conversion, which fails *)
      destruct Hat as [Hidx Hcl Hcur Hd (more & Hsk) _]. rewrite firstn_zlen in Hd.
      rewrite ref_records_cons, <- app_assoc, <- Hd, <- s_rest_skipn in Hsk.
      destruct (L1_record_ok None num r Hok1 s _ Hcl Hsk) as (s1 & Hrun & _).
      pose proof (typed_read_one_shape t s _ _ s1 Hrun) as Ht.
      rewrite try_from_spec, (type_of_denote r Hc), Et in Ht. cbn [rmap] in Ht.
      (* [Ht] fixes only the result of the typed read; [E2] names the source it leaves *)
      destruct (run (read_one_shape (Some t)) s) as [rr s2] eqn:E2. cbn [fst] in Ht. subst rr.
      eexists. exists s2. apply it_pull_err; [exact Hidx|lia|exact E2].
Qed.

(** `collect::<Result<Vec<_>, _>>()` over the items of an iteration, as the bulk reads do. *)
Fixpoint collect_res (items : list (res shape)) : res (list shape) :=
  match items with
  | [] => Ok []
  | Ok s :: r => match collect_res r with Ok l => Ok (s :: l) | e => e end
  | Err e :: _ => Err e
  | Panic :: _ => Panic
  end.

Lemma collect_cut l : collect_res (cut_after_error l) = collect_res l.
Proof. induction l as [|[s|e|] l IH]; cbn [cut_after_error collect_res]; [reflexivity|rewrite IH; reflexivity|reflexivity|reflexivity]. Qed.

Lemma collect_map_try_from t (l : list shape) : collect_res (map (try_from t) l) = convert_all t l.
Proof.
  induction l as [|s l IH]; [reflexivity|]. cbn [map collect_res convert_all].
  destruct (try_from t s) as [x|e|] eqn:E; try reflexivity.
  - rewrite IH. assert (x = s) by (rewrite try_from_spec in E; destruct (st_eqb (type_of s) t); [injection E as <-; reflexivity|discriminate]). subst x.
    destruct (convert_all t l); reflexivity.
Qed.
