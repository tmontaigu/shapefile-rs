(** Exactness of the shoelace orientation test on bounded dyadic rationals.

    A coordinate [a] (a 64-bit pattern) _represents_ the dyadic rational
    [z * 2^e] when Flocq's binary64 reading of the pattern is finite and has
    that real value.  When all coordinates of a ring share the exponent [e]
    (-500 <= e <= 480) and their integer parts are so small that every
    intermediate result of the shoelace evaluation (differences, sums, products,
    running sums) stays below 2^53 in magnitude, every IEEE operation of
    `ring_type_from_points_ordering` is exact, and the orientation test returns
    the sign of the exact signed area.  Reversing a ring negates its exact
    area, so on this domain a ring of non-zero area is always told from its
    mirror image and the stored order is the one the property demands. *)
From Coq Require Import ZArith Reals Lia Lra List Psatz.
From Flocq Require Import Core.Core IEEE754.BinarySingleNaN IEEE754.Binary IEEE754.Bits.
From SF Require Import Model.F64 Model.Shapes Model.F64Arith.
Import ListNotations.
Open Scope Z_scope.

Notation fexp64 := (FLT_exp (3 - 1024 - 53) 53).
Notation B2R64 := (B2R 53 1024).
Notation fin64 := (is_finite 53 1024).

Definition dy (z e : Z) : R := F2R (Float radix2 z e).

Definition rep (a : f64) (z e : Z) : Prop :=
  fin64 (b64_of_bits a) = true /\ B2R64 (b64_of_bits a) = dy z e.

Lemma b64_bits_id (x : binary64) : b64_of_bits (bits_of_b64 x) = x.
Proof. exact (binary_float_of_bits_of_binary_float 52 11 eq_refl eq_refl eq_refl x). Qed.

Lemma dy_format z e : Z.abs z < 2 ^ 53 -> -1074 <= e -> generic_format radix2 fexp64 (dy z e).
Proof.
  intros Hz He. apply generic_format_FLT. exists (Float radix2 z e); [reflexivity|exact Hz|exact He].
Qed.

Lemma dy_round z e : Z.abs z < 2 ^ 53 -> -1074 <= e ->
  round radix2 fexp64 (round_mode mode_NE) (dy z e) = dy z e.
Proof.
  intros Hz He. apply round_generic; [apply valid_rnd_round_mode|apply dy_format; assumption].
Qed.

Lemma dy_small z e : Z.abs z < 2 ^ 53 -> e <= 960 -> (Rabs (dy z e) < bpow radix2 1024)%R.
Proof.
  intros Hz He. unfold dy. rewrite <- F2R_Zabs. cbn [Fnum Fexp F2R].
  apply Rlt_le_trans with (bpow radix2 53 * bpow radix2 e)%R.
  - apply Rmult_lt_compat_r; [apply bpow_gt_0|]. change (bpow radix2 53) with (IZR (2 ^ 53)). apply IZR_lt. exact Hz.
  - rewrite <- bpow_plus. apply bpow_le. lia.
Qed.

Lemma dy_plus x y e : (dy x e + dy y e = dy (x + y) e)%R.
Proof. unfold dy, F2R; cbn [Fnum Fexp]. rewrite plus_IZR. ring. Qed.

Lemma dy_minus x y e : (dy x e - dy y e = dy (x - y) e)%R.
Proof. unfold dy, F2R; cbn [Fnum Fexp]. rewrite minus_IZR. ring. Qed.

Lemma dy_mult x y e1 e2 : (dy x e1 * dy y e2 = dy (x * y) (e1 + e2))%R.
Proof. unfold dy, F2R; cbn [Fnum Fexp]. rewrite mult_IZR, bpow_plus. ring. Qed.

Lemma dy_half x e : (dy x e / dy 1 1 = dy x (e - 1))%R.
Proof.
  unfold dy, F2R; cbn [Fnum Fexp]. unfold Z.sub. rewrite bpow_plus, bpow_opp. change (bpow radix2 1) with 2%R. field.
Qed.

(** Flocq's correctness theorems all have this shape; on a representable
    value far from overflow rounding is the identity and the test succeeds. *)
Lemma rep_exact (x : binary64) z e (P Q : Prop) : Z.abs z < 2 ^ 53 -> -1074 <= e <= 960 ->
  (if Rlt_bool (Rabs (round radix2 fexp64 (round_mode mode_NE) (dy z e))) (bpow radix2 1024)
   then B2R64 x = round radix2 fexp64 (round_mode mode_NE) (dy z e) /\ fin64 x = true /\ P else Q) ->
  rep (bits_of_b64 x) z e.
Proof.
  intros Hz He H. rewrite dy_round in H by lia. rewrite Rlt_bool_true in H by (apply dy_small; lia).
  unfold rep. rewrite b64_bits_id. split; apply H.
Qed.

Lemma fadd_exact a b x y e :
  rep a x e -> rep b y e -> Z.abs (x + y) < 2 ^ 53 -> -1074 <= e <= 960 -> rep (fadd a b) (x + y) e.
Proof.
  intros [Fa Ra] [Fb Rb] Hz He.
  pose proof (Bplus_correct 53 1024 eq_refl eq_refl binop_nan_pl64 mode_NE _ _ Fa Fb) as H.
  rewrite Ra, Rb, dy_plus in H. exact (rep_exact _ _ _ _ _ Hz He H).
Qed.

Lemma fsub_exact a b x y e :
  rep a x e -> rep b y e -> Z.abs (x - y) < 2 ^ 53 -> -1074 <= e <= 960 -> rep (fsub a b) (x - y) e.
Proof.
  intros [Fa Ra] [Fb Rb] Hz He.
  pose proof (Bminus_correct 53 1024 eq_refl eq_refl binop_nan_pl64 mode_NE _ _ Fa Fb) as H.
  rewrite Ra, Rb, dy_minus in H. exact (rep_exact _ _ _ _ _ Hz He H).
Qed.

Lemma fmul_exact a b x y e1 e2 :
  rep a x e1 -> rep b y e2 -> Z.abs (x * y) < 2 ^ 53 -> -1074 <= e1 + e2 <= 960 ->
  rep (fmul a b) (x * y) (e1 + e2).
Proof.
  intros [Fa Ra] [Fb Rb] Hz He.
  pose proof (Bmult_correct 53 1024 eq_refl eq_refl binop_nan_pl64 mode_NE (b64_of_bits a) (b64_of_bits b)) as H.
  rewrite Ra, Rb, dy_mult, Fa, Fb in H. exact (rep_exact _ _ _ _ _ Hz He H).
Qed.

Lemma rep_zero e : rep F_ZERO 0 e.
Proof. split; [reflexivity|]. unfold dy. rewrite F2R_0. reflexivity. Qed.

Lemma rep_neg_zero e : rep F_NEG_ZERO 0 e.
Proof. split; [reflexivity|]. unfold dy. rewrite F2R_0. reflexivity. Qed.

(* the pattern decodes to the mantissa 2^52 at exponent -51; [cbn] on [b64_of_bits] takes seconds *)
Lemma rep_two : rep F_TWO 1 1.
Proof. split; [reflexivity|]. exact (eq_sym (F2R_change_exp radix2 (-51) 1 1 ltac:(lia))). Qed.

Lemma dy_nonzero z e : z <> 0 -> dy z e <> 0%R.
Proof. intros Hz H. apply Hz. exact (eq_0_F2R radix2 z e H). Qed.

Lemma fdiv2_exact a x e :
  rep a x e -> Z.abs x < 2 ^ 53 -> -1073 <= e <= 960 -> rep (fdiv a F_TWO) x (e - 1).
Proof.
  intros [Fa Ra] Hz He. destruct rep_two as [F2 R2].
  assert (N2 : B2R64 (b64_of_bits F_TWO) <> 0%R) by (rewrite R2; apply dy_nonzero; discriminate).
  pose proof (Bdiv_correct 53 1024 eq_refl eq_refl binop_nan_pl64 mode_NE (b64_of_bits a) (b64_of_bits F_TWO) N2) as H.
  rewrite Ra, R2, dy_half, Fa in H. exact (rep_exact _ x (e - 1) _ _ Hz ltac:(lia) H).
Qed.

Lemma flt_zero_exact a s e : rep a s e -> flt a F_ZERO = (s <? 0).
Proof.
  intros [Fa Ra]. destruct (rep_zero 0) as [F0 R0]. unfold flt, b64_compare.
  rewrite (Bcompare_correct 53 1024 _ _ Fa F0), Ra, R0. unfold dy at 2. rewrite F2R_0.
  destruct (Z.ltb_spec s 0) as [Hs|Hs].
  - rewrite Rcompare_Lt; [reflexivity|]. apply F2R_lt_0. exact Hs.
  - pose proof (F2R_ge_0 radix2 (Float radix2 s e) Hs) as Hge. fold (dy s e) in Hge.
    destruct (Rcompare_spec (dy s e) 0) as [Hc|Hc|Hc]; try reflexivity. lra.
Qed.

Definition zterm (p q : Z * Z) : Z := (fst q - fst p) * (snd q + snd p).

Fixpoint zterms (zs : list (Z * Z)) : list Z :=
  match zs with
  | p0 :: ((p1 :: _) as r) => zterm p0 p1 :: zterms r
  | _ => []
  end.

(** twice the exact signed area (clockwise positive), in units of 2^(2e) *)
Fixpoint sh2 (zs : list (Z * Z)) : Z :=
  match zs with
  | p0 :: ((p1 :: _) as r) => zterm p0 p1 + sh2 r
  | _ => 0
  end.

Lemma zterms_cons2 p q r : zterms (p :: q :: r) = zterm p q :: zterms (q :: r).
Proof. reflexivity. Qed.
Lemma sh2_cons2 p q r : sh2 (p :: q :: r) = zterm p q + sh2 (q :: r).
Proof. reflexivity. Qed.
Lemma shoelace_terms_cons2 p q r :
  shoelace_terms (p :: q :: r) = fmul (fsub (px q) (px p)) (fadd (py q) (py p)) :: shoelace_terms (q :: r).
Proof. reflexivity. Qed.

Lemma fold_add_zterms zs z : fold_left Z.add (zterms zs) z = z + sh2 zs.
Proof.
  revert z. induction zs as [|p0 r IH]; intros z; [cbn; lia|]. destruct r as [|p1 r']; [cbn; lia|].
  rewrite zterms_cons2, sh2_cons2. cbn [fold_left]. rewrite IH. lia.
Qed.

Lemma zterm_swap p q : zterm q p = - zterm p q.
Proof. unfold zterm. ring. Qed.

Lemma sh2_snoc l a : sh2 (l ++ [a]) = sh2 l + match l with [] => 0 | _ => zterm (last l a) a end.
Proof.
  induction l as [|p l IH]; [reflexivity|]. destruct l as [|q r]; [cbn; lia|].
  cbn [app] in *. rewrite !sh2_cons2, IH. change (last (p :: q :: r) a) with (last (q :: r) a). lia.
Qed.

Theorem sh2_rev l : sh2 (rev l) = - sh2 l.
Proof.
  induction l as [|p l IH]; [reflexivity|]. cbn [rev]. rewrite sh2_snoc, IH. destruct l as [|q r]; [reflexivity|].
  rewrite sh2_cons2. cbn [rev]. destruct (rev r ++ [q]) eqn:E; [destruct (rev r); discriminate|].
  rewrite <- E, last_last, zterm_swap. lia.
Qed.

Definition rep_pt (e : Z) (p : pt) (z : Z * Z) : Prop := rep (px p) (fst z) e /\ rep (py p) (snd z) e.
Definition reps (e : Z) (ps : list pt) (zs : list (Z * Z)) : Prop := Forall2 (rep_pt e) ps zs.
Definition small (C : Z) (z : Z * Z) : Prop := Z.abs (fst z) <= C /\ Z.abs (snd z) <= C.

Lemma reps_rev e ps zs : reps e ps zs -> reps e (rev ps) (rev zs).
Proof.
  intros H. induction H as [|p z ps zs Hp H IH]; [constructor|]. cbn [rev]. apply Forall2_app; [exact IH|]. constructor; [exact Hp|constructor].
Qed.

Lemma zterm_bound C p q : small C p -> small C q -> Z.abs (zterm p q) <= 4 * C * C.
Proof.
  intros [Hp1 Hp2] [Hq1 Hq2]. unfold zterm. rewrite Z.abs_mul.
  replace (4 * C * C) with ((2 * C) * (2 * C)) by ring. apply Z.mul_le_mono_nonneg; lia.
Qed.

Lemma term_exact e C p q zp zq :
  -500 <= e <= 480 -> 4 * C * C < 2 ^ 53 ->
  rep_pt e p zp -> rep_pt e q zq -> small C zp -> small C zq ->
  rep (fmul (fsub (px q) (px p)) (fadd (py q) (py p))) (zterm zp zq) (e + e).
Proof.
  intros He HB [Hpx Hpy] [Hqx Hqy] Sp Sq. pose proof (zterm_bound C zp zq Sp Sq) as Ht.
  destruct Sp as [Sp1 Sp2], Sq as [Sq1 Sq2].
  assert (H2C : 2 * C < 2 ^ 53) by nia.
  unfold zterm in *. apply fmul_exact; [apply fsub_exact|apply fadd_exact| |]; try assumption; try lia.
Qed.

Lemma terms_exact e C ps zs :
  -500 <= e <= 480 -> 4 * C * C < 2 ^ 53 ->
  reps e ps zs -> Forall (small C) zs ->
  Forall2 (fun t z => rep t z (e + e)) (shoelace_terms ps) (zterms zs) /\
  Forall (fun z => Z.abs z <= 4 * C * C) (zterms zs).
Proof.
  intros He HB H. induction H as [|p z ps zs Hp H IH]; intros HS; [split; constructor|].
  inversion HS as [|? ? Sz HS' E1]; subst. destruct H as [|q zq ps' zs' Hq H'].
  - split; constructor.
  - specialize (IH HS'). destruct IH as [IH1 IH2]. inversion HS' as [|? ? Szq _ E2]; subst.
    rewrite shoelace_terms_cons2, zterms_cons2. split; constructor; try assumption.
    + exact (term_exact e C p q z zq He HB Hp Hq Sz Szq).
    + exact (zterm_bound C z zq Sz Szq).
Qed.

Lemma zterms_length zs : (length (zterms zs) <= length zs)%nat.
Proof.
  induction zs as [|p r IH]; [cbn; lia|]. destruct r as [|q r']; [cbn; lia|].
  rewrite zterms_cons2. cbn [length] in *. lia.
Qed.

Lemma fsum_exact e M ts zs acc z :
  -1074 <= e <= 960 -> 0 <= M ->
  rep acc z e -> Forall2 (fun t x => rep t x e) ts zs -> Forall (fun x => Z.abs x <= M) zs ->
  Z.abs z + Z.of_nat (length zs) * M < 2 ^ 53 ->
  rep (fold_left fadd ts acc) (fold_left Z.add zs z) e.
Proof.
  intros He HM Ha H. revert acc z Ha. induction H as [|t x ts zs Ht H IH]; intros acc z Ha HF HB; [exact Ha|].
  inversion HF as [|? ? Hx HF' E]; subst. cbn [fold_left]. cbn [length] in HB. rewrite Nat2Z.inj_succ in HB.
  apply IH; [|exact HF'|lia]. apply fadd_exact; try assumption; lia.
Qed.

Lemma fold_add_bound M l : forall z, Forall (fun x => Z.abs x <= M) l ->
  Z.abs (fold_left Z.add l z) <= Z.abs z + Z.of_nat (length l) * M.
Proof.
  induction l as [|x l IH]; intros z HF; [cbn; lia|]. inversion HF as [|? ? Hx HF' E]; subst.
  cbn [fold_left length]. rewrite Nat2Z.inj_succ. specialize (IH (z + x) HF'). lia.
Qed.

Theorem ring_is_inner_exact e C ps zs :
  -500 <= e <= 480 -> 0 <= C -> (Z.of_nat (length zs) + 1) * (4 * C * C) < 2 ^ 53 ->
  reps e ps zs -> Forall (small C) zs ->
  ring_is_inner ps = (sh2 zs <? 0).
Proof.
  intros He HC HB H HS.
  assert (HB1 : 4 * C * C < 2 ^ 53) by nia.
  destruct (terms_exact e C ps zs He HB1 H HS) as [T1 T2].
  pose proof (zterms_length zs) as HL.
  assert (HB2 : Z.abs 0 + Z.of_nat (length (zterms zs)) * (4 * C * C) < 2 ^ 53) by nia.
  pose proof (fsum_exact (e + e) (4 * C * C) _ _ F_NEG_ZERO 0 ltac:(lia) ltac:(nia) (rep_neg_zero _) T1 T2 HB2) as Hs.
  pose proof (fold_add_bound _ _ 0 T2) as Hsum. rewrite fold_add_zterms in Hs, Hsum. cbn [Z.add] in Hs, Hsum.
  unfold ring_is_inner, shoelace_area, fsum.
  apply (flt_zero_exact _ _ (e + e - 1)). apply fdiv2_exact; [exact Hs|lia|lia].
Qed.

From SF Require Import Model.Res Model.Construct.

(* [ed_exp]: the products live at exponent 2e, the halved sum at 2e - 1, and [rep_exact] wants an
   exponent between -1074 and 960.  [ed_bound]: a term is at most 4 C^2 ([zterm_bound]) and there are
   no more terms than vertices, so every running sum is below 2^53. *)
Record exact_domain (e C : Z) (ps : list pt) (zs : list (Z * Z)) : Prop := {
  ed_exp : -500 <= e <= 480;
  ed_C : 0 <= C;
  ed_bound : (Z.of_nat (length zs) + 1) * (4 * C * C) < 2 ^ 53;
  ed_reps : reps e ps zs;
  ed_small : Forall (small C) zs }.

Theorem ring_role_exact e C ps zs : exact_domain e C ps zs -> ring_role ps = if sh2 zs <? 0 then Inner else Outer.
Proof.
  intros [H1 H2 H3 H4 H5]. unfold ring_role. rewrite (ring_is_inner_exact e C ps zs) by assumption. reflexivity.
Qed.

Lemma exact_domain_rev e C ps zs : exact_domain e C ps zs -> exact_domain e C (rev ps) (rev zs).
Proof.
  intros [H1 H2 H3 H4 H5]. split; try assumption.
  - rewrite rev_length. exact H3.
  - apply reps_rev. exact H4.
  - apply Forall_rev. exact H5.
Qed.

Theorem exact_ring_flips e C ps zs :
  exact_domain e C ps zs -> sh2 zs <> 0 -> ring_role (rev ps) <> ring_role ps.
Proof.
  intros D Hnz. rewrite (ring_role_exact _ _ _ _ D), (ring_role_exact _ _ _ _ (exact_domain_rev _ _ _ _ D)), sh2_rev.
  destruct (Z.ltb_spec (sh2 zs) 0), (Z.ltb_spec (- sh2 zs) 0); try discriminate; lia.
Qed.

Lemma reorder_exact r c e C zs :
  exact_domain e C c zs ->
  exists zs', exact_domain e C (reorder r c) zs' /\
              (zs' = zs \/ zs' = rev zs) /\
              (r = Outer -> 0 <= sh2 zs') /\ (r = Inner -> sh2 zs' <= 0) /\
              (sh2 zs <> 0 -> sh2 zs' <> 0).
Proof.
  intros D. unfold reorder. rewrite (ring_role_exact _ _ _ _ D).
  destruct (role_eqb r _) eqn:E.
  - exists zs. split; [exact D|]. split; [left; reflexivity|].
    destruct r, (Z.ltb_spec (sh2 zs) 0); try discriminate E; repeat split; intros; try discriminate; lia.
  - exists (rev zs). split; [exact (exact_domain_rev _ _ _ _ D)|]. split; [right; reflexivity|]. rewrite sh2_rev.
    destruct r, (Z.ltb_spec (sh2 zs) 0); try discriminate E; repeat split; intros; try discriminate; lia.
Qed.

Theorem close_and_reorder_exact d ring e C zs :
  exact_domain e C (close_points d (snd ring)) zs ->
  exists zs', exact_domain e C (snd (close_and_reorder d ring)) zs' /\
              (zs' = zs \/ zs' = rev zs) /\
              (fst ring = Outer -> 0 <= sh2 zs') /\ (fst ring = Inner -> sh2 zs' <= 0) /\
              (sh2 zs <> 0 -> sh2 zs' <> 0).
Proof. apply reorder_exact. Qed.

(** Non-vacuity: the open counter-clockwise unit triangle (0,0) (1,0) (0,1),
    closed, is in the exact domain with e = 0, C = 1, and has exact area -1/2
    (shoelace sum -1). *)
Definition one64 : f64 := 4607182418800017408.
Lemma rep_one : rep one64 1 0.
Proof. split; [reflexivity|]. exact (eq_sym (F2R_change_exp radix2 (-52) 1 0 ltac:(lia))). Qed.

Example exact_domain_triangle :
  let ps := [mkpt 0 0 0 0; mkpt one64 0 0 0; mkpt 0 one64 0 0; mkpt 0 0 0 0] in
  let zs := [(0, 0); (1, 0); (0, 1); (0, 0)] in
  exact_domain 0 1 ps zs /\ sh2 zs = -1.
Proof.
  cbv zeta. split; [|reflexivity]. split; try lia.
  - cbn. lia.
  - pose proof (rep_zero 0) as Z0. pose proof rep_one as O1. change F_ZERO with 0 in Z0.
    unfold reps. repeat (first [apply Forall2_nil | apply Forall2_cons; [split; cbn [px py fst snd]; assumption|]]).
  - repeat (first [apply Forall_nil | apply Forall_cons; [split; cbn; lia|]]).
Qed.

From SF Require Import Proofs.PolygonCtor.

Definition exact_nonzero (d : dim) (ring : role * list pt) : Prop :=
  exists e C zs, exact_domain e C (close_points d (snd ring)) zs /\ sh2 zs <> 0.

Theorem stored_role_exact d ring : exact_nonzero d ring -> ring_role (snd (close_and_reorder d ring)) = fst ring.
Proof.
  intros (e & C & zs & D & Hnz). apply close_and_reorder_oriented. exact (exact_ring_flips e C _ zs D Hnz).
Qed.

Theorem mk_polygon_idempotent_exact d rings s :
  mk_polygon d rings = Ok s ->
  Forall (fun r => snd r <> [] /\ pt_nn d (hd pt0 (snd r)) /\ exact_nonzero d r) rings ->
  mk_polygon d (rings_of s) = Ok s.
Proof.
  intros H Hall. apply (mk_polygon_idempotent d rings s H). rewrite (mk_polygon_rings d rings s H).
  apply Forall_map. eapply Forall_impl; [|exact Hall]. intros r (Hne & Hnn & Hex). split.
  - apply close_and_reorder_closed; assumption.
  - rewrite (stored_role_exact d r Hex). reflexivity.
Qed.
