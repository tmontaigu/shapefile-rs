(** Lemmas on the fixed-width codecs (lengths, byte ranges, round trips) and
    the list lemmas the development shares. *)
From SF Require Import Model.Bytes.
Open Scope Z_scope.

(* In force in every file that imports this one ([::=] is global): [lia] also decides goals with [/] and [mod] by constants. *)
Ltac Zify.zify_post_hook ::= Z.div_mod_to_equations.

Lemma zlen_nil {A} : zlen (@nil A) = 0.
Proof. reflexivity. Qed.

Lemma zlen_cons {A} (x : A) l : zlen (x :: l) = 1 + zlen l.
Proof. unfold zlen; cbn [length]; lia. Qed.

Lemma zlen_app {A} (a b : list A) : zlen (a ++ b) = zlen a + zlen b.
Proof. unfold zlen; rewrite app_length; lia. Qed.

Lemma zlen_nonneg {A} (l : list A) : 0 <= zlen l.
Proof. unfold zlen; lia. Qed.

Lemma zlen_map {A B} (f : A -> B) l : zlen (map f l) = zlen l.
Proof. unfold zlen; rewrite map_length; reflexivity. Qed.

Lemma zlen_rev {A} (l : list A) : zlen (rev l) = zlen l.
Proof. unfold zlen; rewrite rev_length; reflexivity. Qed.

Lemma firstn_zlen {A} (l : list A) : firstn (Z.to_nat (zlen l)) l = l.
Proof. unfold zlen. rewrite Nat2Z.id. apply firstn_all. Qed.

Lemma zlen_flat_map {A} (f : A -> bytes) k (l : list A) :
  (forall x, zlen (f x) = k) -> zlen (flat_map f l) = k * zlen l.
Proof.
  intros H. induction l as [|x l IH]; cbn [flat_map]; [unfold zlen; cbn [length]; lia|].
  rewrite zlen_app, H, IH, zlen_cons. lia.
Qed.

Lemma le_bytes_length n v : length (le_bytes n v) = n.
Proof. revert v; induction n as [|n IH]; intros v; cbn [le_bytes length]; [reflexivity|]. rewrite IH; reflexivity. Qed.

Lemma be_bytes_length n v : length (be_bytes n v) = n.
Proof. unfold be_bytes; rewrite rev_length; apply le_bytes_length. Qed.

Lemma i32_le_length v : length (i32_le v) = 4%nat.
Proof. apply le_bytes_length. Qed.

Lemma i32_be_length v : length (i32_be v) = 4%nat.
Proof. apply be_bytes_length. Qed.

Lemma f64_enc_length v : length (f64_enc v) = 8%nat.
Proof. apply le_bytes_length. Qed.

Lemma zlen_i32_le v : zlen (i32_le v) = 4.
Proof. unfold zlen; rewrite i32_le_length; reflexivity. Qed.

Lemma zlen_i32_be v : zlen (i32_be v) = 4.
Proof. unfold zlen; rewrite i32_be_length; reflexivity. Qed.

Lemma zlen_f64_enc v : zlen (f64_enc v) = 8.
Proof. unfold zlen; rewrite f64_enc_length; reflexivity. Qed.

Lemma le_bytes_range n v : all_bytes (le_bytes n v).
Proof.
  revert v; induction n as [|n IH]; intros v; cbn [le_bytes]; constructor.
  - apply Z.mod_pos_bound; lia.
  - apply IH.
Qed.

Lemma of_le_le_bytes n v : 0 <= v < 256 ^ Z.of_nat n -> of_le (le_bytes n v) = v.
Proof.
  revert v; induction n as [|n IH]; intros v Hv.
  - cbn. change (256 ^ Z.of_nat 0) with 1 in Hv. lia.
  - cbn [le_bytes of_le]. rewrite IH.
    + pose proof (Z.div_mod v 256). lia.
    + rewrite Nat2Z.inj_succ, Z.pow_succ_r in Hv by lia.
      split; [apply Z.div_pos; lia|]. apply Z.div_lt_upper_bound; lia.
Qed.

Lemma of_be_be_bytes n v : 0 <= v < 256 ^ Z.of_nat n -> of_be (be_bytes n v) = v.
Proof. intros H; unfold of_be, be_bytes; rewrite rev_involutive; apply of_le_le_bytes; exact H. Qed.

Lemma pow256_4 : 256 ^ Z.of_nat 4 = two32. Proof. reflexivity. Qed.

Lemma pow256_8 : 256 ^ Z.of_nat 8 = two64. Proof. reflexivity. Qed.

Lemma to_i32_wrap v : in_i32 v -> to_i32 (v mod two32) = v.
Proof.
  unfold in_i32, to_i32, two31, two32; intros H.
  destruct (Z.ltb_spec (v mod 4294967296) 2147483648); lia.
Qed.

Lemma i32_of_le_i32_le v : in_i32 v -> i32_of_le (i32_le v) = v.
Proof.
  intros H; unfold i32_of_le, i32_le. rewrite of_le_le_bytes.
  - apply to_i32_wrap; exact H.
  - rewrite pow256_4. apply Z.mod_pos_bound; reflexivity.
Qed.

Lemma i32_of_be_i32_be v : in_i32 v -> i32_of_be (i32_be v) = v.
Proof.
  intros H; unfold i32_of_be, i32_be. rewrite of_be_be_bytes.
  - apply to_i32_wrap; exact H.
  - rewrite pow256_4. apply Z.mod_pos_bound; reflexivity.
Qed.

Lemma f64_dec_enc v : 0 <= v < two64 -> f64_dec (f64_enc v) = v.
Proof. intros H; unfold f64_dec, f64_enc; apply of_le_le_bytes; rewrite pow256_8; exact H. Qed.

Lemma of_le_range bs : all_bytes bs -> 0 <= of_le bs < 256 ^ zlen bs.
Proof.
  induction 1 as [|b r Hb Hr IH]; cbn [of_le].
  - change (zlen (@nil Z)) with 0. cbn. lia.
  - rewrite zlen_cons. rewrite Z.pow_add_r by (try lia; apply zlen_nonneg). change (256 ^ 1) with 256. nia.
Qed.

Lemma to_i32_range u : 0 <= u < two32 -> in_i32 (to_i32 u).
Proof. unfold in_i32, to_i32, two31, two32; intros H; destruct (Z.ltb_spec u 2147483648); lia. Qed.

Lemma sum_Z_app a b : sum_Z (a ++ b) = sum_Z a + sum_Z b.
Proof. induction a as [|x a IH]; cbn [sum_Z app]; lia. Qed.

Lemma sum_Z_nonneg l : Forall (fun x => 0 <= x) l -> 0 <= sum_Z l.
Proof. induction 1; cbn [sum_Z]; lia. Qed.

(* Trailing [_], here and on [Forall_firstn_], [Forall_skipn_]: the plain name is left to the standard library
   ([skipn_skipn] exists in later versions). *)
Lemma skipn_skipn_ {A} (x y : nat) (l : list A) : skipn x (skipn y l) = skipn (y + x) l.
Proof.
  revert l; induction y as [|y IH]; intros l; cbn [Nat.add]; [rewrite skipn_O; reflexivity|].
  destruct l as [|a l]; [rewrite !skipn_nil; reflexivity|]. rewrite !skipn_cons. apply IH.
Qed.

Lemma skipn_app_after {A} n (l a b : list A) : skipn n l = a ++ b -> skipn (n + length a) l = b.
Proof. intros H. rewrite <- skipn_skipn_, H, skipn_app, skipn_all, Nat.sub_diag. reflexivity. Qed.

Lemma skipn_nonempty {A} n (l : list A) : skipn n l <> [] -> (n < length l)%nat.
Proof. intros H. destruct (Nat.le_gt_cases (length l) n) as [Hl|Hl]; [destruct H; apply skipn_all2, Hl|exact Hl]. Qed.

Lemma skipn_app_length {A} n (l r : list A) : length l = n -> skipn n (l ++ r) = r.
Proof. intros <-. rewrite skipn_app, skipn_all, Nat.sub_diag. reflexivity. Qed.

Lemma skipn_bound {A} n (l a r : list A) : skipn n l = a ++ r -> (n + length a <= length l)%nat \/ a = [].
Proof.
  intros H. destruct a as [|x a]; [right; reflexivity|left].
  assert (L : length (skipn n l) = length ((x :: a) ++ r)) by (rewrite H; reflexivity).
  rewrite skipn_length, app_length in L. cbn [length] in *. lia.
Qed.

Lemma skipn_cons_nth {A} k (l : list A) x : nth_error l k = Some x -> skipn k l = x :: skipn (S k) l.
Proof.
  revert l; induction k as [|k IH]; intros [|y l] H; try discriminate; [injection H as ->; reflexivity|exact (IH l H)].
Qed.

Lemma firstn_min {A} n (l : list A) : firstn n l = firstn (Nat.min n (length l)) l.
Proof.
  destruct (Nat.le_ge_cases n (length l)) as [H|H]; [rewrite Nat.min_l by exact H; reflexivity|].
  rewrite Nat.min_r, firstn_all by exact H. apply firstn_all2, H.
Qed.

Lemma concat_firstn {A} j (cs : list (list A)) :
  concat (firstn j cs) = firstn (length (concat (firstn j cs))) (concat cs).
Proof.
  rewrite <- (firstn_skipn j cs) at 3. rewrite concat_app, firstn_app, firstn_all, Nat.sub_diag, app_nil_r. reflexivity.
Qed.

Lemma Forall_firstn_ {A} (P : A -> Prop) n l : Forall P l -> Forall P (firstn n l).
Proof. intros H; revert n; induction H as [|x l Hx Hl IH]; intros [|n]; cbn [firstn]; constructor; auto. Qed.

Lemma Forall_skipn_ {A} (P : A -> Prop) n l : Forall P l -> Forall P (skipn n l).
Proof. intros H; revert n; induction H as [|x l Hx Hl IH]; intros [|n]; cbn [skipn]; try constructor; auto. Qed.

Lemma nth_error_combine {A B} k (l : list A) (l' : list B) a b :
  nth_error l k = Some a -> nth_error l' k = Some b -> nth_error (combine l l') k = Some (a, b).
Proof.
  revert l l'; induction k as [|k IH]; intros [|x l] [|y l'] Ha Hb; try discriminate.
  - injection Ha as ->. injection Hb as ->. reflexivity.
  - exact (IH l l' Ha Hb).
Qed.

Lemma map_const_repeat {A B} (y : B) (l : list A) : map (fun _ => y) l = repeat y (length l).
Proof. induction l as [|x l IH]; [reflexivity|]. cbn [map length repeat]. rewrite IH. reflexivity. Qed.
