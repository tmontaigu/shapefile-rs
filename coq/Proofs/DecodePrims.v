(** L1, part 1: the primitive readers consume exactly the encodings of the
    ESRI layout, and list lemmas about attaching Z/M values to vertices. *)
From SF Require Import Model.Bytes Model.F64 Model.ShapeType Model.Shapes Model.Prog Model.Decode Spec.Esri
  Spec.Denote.
From SF Require Import Proofs.BytesLemmas Proofs.ShapeTypeProofs Proofs.ProgLemmas.
Open Scope Z_scope.

(** A record reader is given the length of the content; the length is brought
    into the closed form [n] before the reader is unfolded. *)
Lemma reads_size {A} (p : Z -> prog A) n bs a : zlen bs = n -> reads (p n) bs a -> reads (p (zlen bs)) bs a.
Proof. intros <- H; exact H. Qed.

Lemma reads_field {A} n (enc : A -> bytes) (dec : bytes -> A) v :
  length (enc v) = n -> dec (enc v) = v -> reads (bs <-- take n ;; Ret (dec bs)) (enc v) v.
Proof.
  intros Hn Hd. eapply reads_bind_last; [apply reads_take, Hn|]. rewrite Hd. apply reads_ret.
Qed.

Lemma reads_i32_le v : in_i32 v -> reads read_i32_le (i32_le v) v.
Proof. intros H. apply reads_field; [apply i32_le_length|apply i32_of_le_i32_le, H]. Qed.

Lemma reads_i32_be v : in_i32 v -> reads read_i32_be (i32_be v) v.
Proof. intros H. apply reads_field; [apply i32_be_length|apply i32_of_be_i32_be, H]. Qed.

Lemma reads_f64 v : f64_ok v -> reads read_f64 (f64_enc v) v.
Proof. intros H. apply reads_field; [apply f64_enc_length|apply f64_dec_enc, H]. Qed.

Lemma st_code_in_i32 t : in_i32 (st_code t).
Proof. destruct t; unfold in_i32, two31; cbn; lia. Qed.

Lemma reads_shape_type t : reads read_shape_type (i32_le (st_code t)) t.
Proof.
  unfold read_shape_type. eapply reads_bind_last; [apply reads_i32_le, st_code_in_i32|].
  rewrite st_decode_code. apply reads_ret.
Qed.

Lemma zlen_f64s l : zlen (f64s l) = 8 * zlen l.
Proof. apply zlen_flat_map, zlen_f64_enc. Qed.

Lemma zlen_i32s l : zlen (i32s l) = 4 * zlen l.
Proof. apply zlen_flat_map, zlen_i32_le. Qed.

Definition xy_enc (p : f64 * f64) : bytes := f64_enc (fst p) ++ f64_enc (snd p).

Lemma zlen_xys (l : list (f64 * f64)) : zlen (flat_map xy_enc l) = 16 * zlen l.
Proof. apply zlen_flat_map. intros p. unfold xy_enc. rewrite zlen_app, !zlen_f64_enc. reflexivity. Qed.

Definition xy_pt (d : dim) (p : f64 * f64) : pt := pt_xy d (fst p) (snd p).

Fixpoint zipw {A B C} (f : A -> B -> C) (a : list A) (b : list B) : list C :=
  match a, b with
  | x :: a', y :: b' => f x y :: zipw f a' b'
  | _, _ => []
  end.

Lemma zipw_length {A B C} (f : A -> B -> C) a b : length (zipw f a b) = Nat.min (length a) (length b).
Proof. revert b; induction a as [|x a IH]; intros [|y b]; cbn [zipw length Nat.min]; auto. Qed.

Lemma reads_xy_points d n (pts : list (f64 * f64)) :
  zlen pts = n -> Forall (fun p => f64_ok (fst p) /\ f64_ok (snd p)) pts ->
  reads (read_xy_points d n) (flat_map xy_enc pts) (map (xy_pt d) pts).
Proof.
  intros <- Hok. unfold read_xy_points. eapply reads_bind_nil; [apply reads_reserve|].
  apply reads_rep_Z_map. intros p Hp. rewrite Forall_forall in Hok. destruct (Hok p Hp) as [Hx Hy].
  eapply reads_bind; [apply reads_f64, Hx|].
  eapply reads_bind_last; [apply reads_f64, Hy|apply reads_ret].
Qed.

Lemma reads_for_each_f64 {A B} (g : A -> f64 -> B) (xs : list A) (vs : list f64) :
  length xs = length vs -> Forall f64_ok vs ->
  reads (for_each xs (fun x => v <-- read_f64 ;; Ret (g x v))) (f64s vs) (zipw g xs vs).
Proof.
  revert vs; induction xs as [|x xs IH]; intros [|v vs] Hlen Hok; cbn in Hlen; try discriminate;
    cbn [for_each zipw].
  - apply reads_ret.
  - inversion Hok; subst. unfold f64s; cbn [flat_map].
    eapply reads_bind; [eapply reads_bind_last; [apply reads_f64; assumption|apply reads_ret]|].
    eapply reads_bind_last; [apply IH; [lia|assumption]|apply reads_ret].
Qed.

Lemma reads_zs_into ps zs :
  length ps = length zs -> Forall f64_ok zs -> reads (read_zs_into ps) (f64s zs) (zipw set_z ps zs).
Proof. apply reads_for_each_f64. Qed.

Definition set_m_norm (p : pt) (m : f64) : pt := set_m p (read_m_norm m).

Lemma reads_ms_into ps ms :
  length ps = length ms -> Forall f64_ok ms -> reads (read_ms_into ps) (f64s ms) (zipw set_m_norm ps ms).
Proof. apply (reads_for_each_f64 set_m_norm). Qed.

(** The vertices of the denotation, built the way the decoder builds them:
    the XY pairs first, then Z attached if the dimension has it, then M
    attached if the record has the block. *)
Lemma vertices_none d pts zs : (has_z_dim d = true -> length zs = length pts) ->
  vertices d pts zs None = if has_z_dim d then zipw set_z (map (xy_pt d) pts) zs else map (xy_pt d) pts.
Proof.
  destruct (has_z_dim d) eqn:Ez; intros Hz.
  - specialize (Hz eq_refl). revert zs Hz; induction pts as [|[x y] pts IH]; intros [|z zs] Hz;
      try discriminate Hz; [reflexivity|].
    cbn [vertices map zipw hd tl]. rewrite Ez, IH by (cbn in Hz; lia). reflexivity.
  - clear Hz. revert zs; induction pts as [|[x y] pts IH]; intros zs; [reflexivity|].
    cbn [vertices map]. rewrite Ez, IH. reflexivity.
Qed.

Lemma vertices_some d pts zs l : has_m_dim d = true -> length l = length pts ->
  vertices d pts zs (Some l) = zipw set_m_norm (vertices d pts zs None) l.
Proof.
  intros Hd. revert zs l; induction pts as [|[x y] pts IH]; intros zs [|m l] H; try discriminate; [reflexivity|].
  cbn [vertices zipw tl hd]. rewrite Hd, IH by (cbn in H; lia). reflexivity.
Qed.
