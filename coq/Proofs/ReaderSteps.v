(** Run equations of the reader state machine (Model/Reader.v): what [it_read],
    and without index [it_next] and [it_pull], return given the outcome of the
    record read.  Every route through the iterator (sequential, truncated,
    typed, after a crash, with an index) reasons from these. *)
From SF Require Import Model.Bytes Model.Res Model.Prog Model.Decode Model.Reader.
From SF Require Import Proofs.ProgLemmas.
Open Scope Z_scope.

Lemma usize_add_ok a b : a + b < two64 -> usize_add a b = Ret (a + b).
Proof. intros H. unfold usize_add. destruct (Z.ltb_spec (a + b) two64); [reflexivity|lia]. Qed.

Lemma nth_entry_nonneg idx i : 0 <= i -> nth_entry idx i = nth_error idx (Z.to_nat i).
Proof. intros H. unfold nth_entry. destruct (Z.ltb_spec i 0); [lia|reflexivity]. Qed.

Lemma offset_in_bytes_nonneg off : 0 <= off -> offset_in_bytes off = Some (off * 2).
Proof. intros H. unfold offset_in_bytes. destruct (Z.ltb_spec (off * 2) 0); [lia|reflexivity]. Qed.

Lemma read_one_shape_size req s hdr x s' :
  run (read_one_shape req) s = (Ok (hdr, x), s') -> 0 <= snd hdr * 2 < two31.
Proof.
  unfold read_one_shape. rewrite run_bind. destruct (run read_record_header s) as [[h|e|] s1]; try discriminate.
  destruct (Z.ltb_spec (snd h * 2) 0); cbn [orb]; [cbn; discriminate|].
  destruct (Z.leb_spec two31 (snd h * 2)); [cbn; discriminate|].
  rewrite run_bind. destruct (run (read_from req (snd h * 2)) s1) as [[y|e|] s2]; try discriminate.
  cbn [run]. intros E. injection E as <- _ _. lia.
Qed.

Lemma flen_bytes_set_cur st c : flen_bytes (set_cur st c) = flen_bytes st.
Proof. reflexivity. Qed.

Lemma it_read_ok req st s hdr x s' :
  run (read_one_shape req) s = (Ok (hdr, x), s') -> r_cur st + 8 + snd hdr * 2 < two64 ->
  run (it_read req st) s = (Ok (Some (Ok x), set_cur st (r_cur st + 8 + snd hdr * 2)), s').
Proof.
  intros Hrun Hov. pose proof (read_one_shape_size req s hdr x s' Hrun) as Hsz.
  unfold it_read. rewrite run_bind, run_catch, Hrun. cbn [snd].
  rewrite usize_add_ok by lia. cbn [bind]. rewrite usize_add_ok by lia. reflexivity.
Qed.

Lemma it_read_err req st s e s' :
  run (read_one_shape req) s = (Err e, s') ->
  run (it_read req st) s
  = (Ok (Some (Err e), set_cur st (match r_index st with Some _ => UNKNOWN_POSITION | None => flen_bytes st end)), s').
Proof. intros Hrun. unfold it_read. rewrite run_bind, run_catch, Hrun. reflexivity. Qed.

Lemma it_next_noindex req st : r_index st = None ->
  it_next req st = if flen_bytes st <=? r_cur st then Ret (None, st) else it_read req st.
Proof. intros H. unfold it_next. rewrite H. reflexivity. Qed.

Lemma it_pull_S f req st :
  it_pull (S f) req st
  = (x <-- it_next req st ;;
     match fst x with
     | None => Ret ([], true, snd x)
     | Some item => y <-- it_pull f req (snd x) ;; Ret (item :: fst (fst y), snd (fst y), snd y)
     end).
Proof. reflexivity. Qed.

Lemma it_pull_end f req st s : r_index st = None -> flen_bytes st <= r_cur st ->
  run (it_pull f req st) s = (Ok ([], match f with O => false | S _ => true end, st), s).
Proof.
  intros Hidx Hge. destruct f as [|f]; [reflexivity|]. rewrite it_pull_S, run_bind, it_next_noindex by exact Hidx.
  destruct (Z.leb_spec (flen_bytes st) (r_cur st)); [reflexivity|lia].
Qed.

Lemma it_pull_err f req st s e s' : r_index st = None -> r_cur st < flen_bytes st ->
  run (read_one_shape req) s = (Err e, s') ->
  run (it_pull (S f) req st) s
  = (Ok ([Err e], match f with O => false | S _ => true end, set_cur st (flen_bytes st)), s').
Proof.
  intros Hidx Hlt Hrun. rewrite it_pull_S, run_bind, it_next_noindex by exact Hidx.
  destruct (Z.leb_spec (flen_bytes st) (r_cur st)); [lia|].
  rewrite (it_read_err req st s e s' Hrun), Hidx. cbn [fst snd]. rewrite run_bind.
  rewrite it_pull_end; [reflexivity|exact Hidx|cbn [set_cur r_cur]; apply Z.le_refl].
Qed.

Lemma it_pull_ok f req st s hdr x s' items ended st2 s2 : r_index st = None -> r_cur st < flen_bytes st ->
  run (read_one_shape req) s = (Ok (hdr, x), s') -> r_cur st + 8 + snd hdr * 2 < two64 ->
  run (it_pull f req (set_cur st (r_cur st + 8 + snd hdr * 2))) s' = (Ok (items, ended, st2), s2) ->
  run (it_pull (S f) req st) s = (Ok (Ok x :: items, ended, st2), s2).
Proof.
  intros Hidx Hlt Hrun Hov Hrest. rewrite it_pull_S, run_bind, it_next_noindex by exact Hidx.
  destruct (Z.leb_spec (flen_bytes st) (r_cur st)); [lia|].
  rewrite (it_read_ok req st s hdr x s' Hrun Hov). cbn [fst snd]. rewrite run_bind, Hrest. reflexivity.
Qed.
