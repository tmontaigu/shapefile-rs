(** Index files: parsing the .shx, the index of a conformant file addresses
    its records ([Indexed]), opening a reader with an index; then the
    write-then-read theorems for every history of reader calls. *)
From SF Require Import Model.Bytes Model.ShapeType Model.Shapes Model.Res Model.Encode Model.Prog
  Model.Decode Model.Reader Spec.Esri Spec.Layout.
From SF Require Import Proofs.BytesLemmas Proofs.ProgLemmas Proofs.DecodePrims Proofs.RecordL1
  Proofs.ReaderSeq Proofs.WriterInv Proofs.EncodeRef Proofs.LayoutConf Proofs.RoundTrip Proofs.IndexReader.
Open Scope Z_scope.

Definition entry_bytes (e : Z * Z) : bytes := i32_be (fst e) ++ i32_be (snd e).

(** The body of the loop of [read_index_file] (Model/Decode.v), anonymous there;
    where the model's text meets a lemma about it, [fold entry_prog] is needed. *)
Definition entry_prog : prog (Z * Z) := off <-- read_i32_be ;; words <-- read_i32_be ;; Ret (off, words).

Lemma reads_entry e : in_i32 (fst e) -> in_i32 (snd e) -> reads entry_prog (entry_bytes e) e.
Proof.
  intros H1 H2. unfold entry_prog, entry_bytes. eapply reads_bind; [apply reads_i32_be, H1|]. cbv beta.
  eapply reads_bind_last; [apply reads_i32_be, H2|]. destruct e; apply reads_ret.
Qed.

Theorem reads_index_file t box entries trailing :
  length box = 8%nat -> Forall f64_ok box -> 50 + 4 * zlen entries < two31 ->
  Forall (fun e => in_i32 (fst e) /\ in_i32 (snd e)) entries ->
  fst (run read_index_file (src_of (ref_shx_of t box entries ++ trailing))) = Ok entries.
Proof.
  intros Hbl Hbox Hn He.
  pose proof (zlen_nonneg entries) as Hnn.
  assert (Hl : in_i32 (50 + 4 * zlen entries)) by (unfold in_i32, two31 in *; lia).
  assert (R : reads read_index_file (ref_shx_of t box entries) entries).
  { unfold read_index_file, ref_shx_of. eapply reads_bind; [apply reads_header; assumption|]. cbv beta zeta.
    unfold header_of. cbn [h_len].
    replace (index_entries_declared (50 + 4 * zlen entries)) with (zlen entries)
      by (unfold index_entries_declared; rewrite Z.quot_div_nonneg by lia; lia).
    eapply reads_bind_nil; [apply reads_reserve|]. apply reads_rep_Z.
    intros e Hin. rewrite Forall_forall in He. destruct (He e Hin). apply reads_entry; assumption. }
  destruct (R _ trailing (clean_src_of _) (s_rest_src_of _)) as (s1 & Hrun & _). rewrite Hrun. reflexivity.
Qed.

Lemma index_addresses req trailing : forall rs pre off,
  zlen pre = 2 * off -> 0 <= off -> Forall (record_ok req) rs ->
  Forall2 (stored_at req (pre ++ ref_records_bytes rs ++ trailing)) (ref_index_entries off rs) rs.
Proof.
  induction rs as [|[num r] rs IH]; intros pre off Hpre Hoff Hok; cbn [ref_index_entries]; constructor.
  - inversion Hok as [|? ? Hok1 _]; subst. unfold stored_at. cbn [fst snd]. split; [exact Hoff|]. split; [|exact Hok1].
    exists (ref_records_bytes rs ++ trailing).
    replace (Z.to_nat (off * 2)) with (length pre) by (unfold zlen in Hpre; lia).
    rewrite skipn_app, skipn_all, Nat.sub_diag. cbn [skipn app].
    unfold ref_records_bytes. cbn [flat_map fst snd]. rewrite <- app_assoc. reflexivity.
  - inversion Hok as [|? ? Hok1 Hok2]; subst.
    specialize (IH (pre ++ ref_record num r) (off + 4 + zlen (ref_content r) / 2)).
    unfold ref_records_bytes in *. cbn [flat_map fst snd]. rewrite <- !app_assoc in *.
    apply IH; [|pose proof (zlen_nonneg (ref_content r)); lia|exact Hok2].
    pose proof (ref_content_even r).
    rewrite zlen_app, zlen_ref_record. lia.
Qed.

Theorem conformant_indexed req g trailing :
  file_conformant g -> Forall (record_ok req) (rf_records g) -> zlen trailing < two32 ->
  Indexed req (ref_shp g ++ trailing) (ref_index_entries 50 (rf_records g)) (rf_records g).
Proof.
  intros (Hbl & Hbox & Hrecs & Hlen) Hok Htr. split.
  - unfold ref_shp. rewrite <- app_assoc. apply index_addresses; [|lia|exact Hok].
    rewrite zlen_ref_header by exact Hbl. reflexivity.
  - unfold ref_shp. rewrite !zlen_app, zlen_ref_header by exact Hbl.
    pose proof (zlen_nonneg (ref_records_bytes (rf_records g))). unfold two31, two32, two63 in *. lia.
Qed.

Lemma open_with_index t box len idx rest :
  length box = 8%nat -> Forall f64_ok box -> in_i32 len ->
  let data := ref_header t box len ++ rest in
  let st0 := mkr (header_of t box len) (Some idx) 100 0 in
  exists s', run (r_with_shx idx) (src_of data) = (Ok st0, s') /\ RInv data idx st0 s'.
Proof.
  intros Hbl Hbox Hl data st0. subst data. unfold r_with_shx.
  destruct (reads_header t box len Hbl Hbox Hl _ rest (clean_src_of _) (s_rest_src_of _)) as (s1 & Hrun & Hc1 & Hd1 & Hp1).
  rewrite run_bind, Hrun. exists s1. split; [reflexivity|].
  constructor; [exact Hc1|exact Hd1|reflexivity| |cbn [st0 r_next]; pose proof (zlen_nonneg idx); lia].
  left. rewrite Hp1, zlen_ref_header by exact Hbl. reflexivity.
Qed.

Theorem index_governs req t box len rest idx recs cs :
  length box = 8%nat -> Forall f64_ok box -> in_i32 len ->
  Indexed req (ref_header t box len ++ rest) idx recs -> Forall rcall_wf cs ->
  exists st' s',
    run (st <-- r_with_shx idx ;; x <-- r_calls req st cs ;; Ret (r_hdr st, fst x)) (src_of (ref_header t box len ++ rest))
    = (Ok (header_of t box len, abs_calls (shapes_of recs) 0 cs), s') /\ RInv (ref_header t box len ++ rest) idx st' s'.
Proof.
  intros Hbl Hbox Hl HI Hwf.
  destruct (open_with_index t box len idx rest Hbl Hbox Hl) as (s1 & Hrun1 & Hinv1).
  destruct (index_history req _ idx recs cs _ s1 O HI Hinv1 eq_refl Hwf) as (st2 & s2 & Hrun2 & Hinv2).
  exists st2, s2. rewrite run_bind, Hrun1. cbn [fst snd]. rewrite run_bind, Hrun2. cbn [run fst snd r_hdr].
  auto.
Qed.

Lemma numbered_index_in_i32 : forall rs off, 0 <= off ->
  off + sum_Z (map (fun nr => 4 + zlen (ref_content (snd nr)) / 2) rs) < two31 ->
  Forall (fun e => in_i32 (fst e) /\ in_i32 (snd e)) (ref_index_entries off rs).
Proof.
  induction rs as [|[n r] rs IH]; intros off Hoff Hs; cbn [ref_index_entries]; constructor.
  - cbn [map sum_Z fst snd] in *. pose proof (zlen_nonneg (ref_content r)).
    assert (0 <= sum_Z (map (fun nr : Z * ref_rec => 4 + zlen (ref_content (snd nr)) / 2) rs)).
    { clear. induction rs as [|x rs IH]; cbn [map sum_Z]; [lia|]. pose proof (zlen_nonneg (ref_content (snd x))). lia. }
    unfold in_i32, two31 in *. split; lia.
  - cbn [map sum_Z fst snd] in Hs. pose proof (zlen_nonneg (ref_content r)). apply IH; lia.
Qed.

Lemma sum_numbered i ss :
  sum_Z (map (fun nr : Z * ref_rec => 4 + zlen (ref_content (snd nr)) / 2) (numbered i (map rec_of_shape ss)))
  = sum_Z (map (fun s => record_words s + 4) ss).
Proof.
  revert i; induction ss as [|s r IH]; intros i; [reflexivity|].
  cbn [map numbered sum_Z snd]. rewrite IH, <- record_words_ref. lia.
Qed.

Lemma written_index_in_i32 ss : FileFits ss ->
  Forall (fun e => in_i32 (fst e) /\ in_i32 (snd e)) (ref_index_entries 50 (numbered 1 (map rec_of_shape ss))).
Proof. intros Hf. apply numbered_index_in_i32; [lia|]. rewrite sum_numbered. exact Hf. Qed.

Theorem written_then_read_index (req : option shape_type) (ss : list shape) (cs : list rcall) :
  Forall shape_ok ss -> one_type ss -> FileFits ss -> RecordsFit ss ->
  (req = None \/ req = Some (file_type ss)) -> Forall rcall_wf cs ->
  exists idx,
    fst (run read_index_file (src_of (final_shx ss))) = Ok idx /\ zlen idx = zlen ss /\
    exists s',
      run (st <-- r_with_shx idx ;; x <-- r_calls req st cs ;; Ret (r_hdr st, fst x)) (src_of (final_shp ss))
      = (Ok (header_of (file_type ss) (box8 (h_box (final_hdr ss))) (file_words ss),
             abs_calls (map on_read ss) 0 cs), s').
Proof.
  intros Hok Hty Hf Hrf Hreq Hwf.
  set (g := layout (file_type ss) (h_box (final_hdr ss)) ss).
  pose proof (layout_conformant ss Hok Hty Hf) as Hconf. fold g in Hconf.
  pose proof (written_records_ok req ss Hok Hty Hf Hrf Hreq) as Hrecs.
  change (numbered 1 (map rec_of_shape ss)) with (rf_records g) in Hrecs.
  exists (ref_index_entries 50 (rf_records g)).
  assert (Hzi : zlen (ref_index_entries 50 (rf_records g)) = zlen ss).
  { rewrite zlen_ref_index_entries. unfold g, layout. cbn [rf_records]. rewrite zlen_numbered, zlen_map. reflexivity. }
  pose proof Hconf as (Hbl & Hbox & _ & Hlen). split; [|split; [exact Hzi|]].
  - rewrite final_shx_is_ref by exact Hf. fold g. unfold ref_shx. rewrite <- (app_nil_r (ref_shx_of _ _ _)).
    apply reads_index_file; try assumption; [|exact (written_index_in_i32 ss Hf)].
    rewrite Hzi. unfold FileFits, file_words in Hf. pose proof (sum_words_ge ss). pose proof (zlen_nonneg ss). unfold two31 in *. lia.
  - rewrite final_shp_is_ref by exact Hf. fold g. unfold ref_shp. fold (declared_words g).
    assert (Hl : in_i32 (declared_words g)).
    { unfold declared_words. pose proof (zlen_nonneg (ref_records_bytes (rf_records g))). unfold in_i32, two31 in *. lia. }
    pose proof (conformant_indexed req g [] Hconf Hrecs ltac:(unfold two32; cbn; lia)) as HI.
    rewrite app_nil_r in HI. unfold ref_shp in HI. fold (declared_words g) in HI.
    destruct (index_governs req (rf_type g) (rf_box g) _ _ _ _ cs Hbl Hbox Hl HI Hwf) as (st' & s' & Hrun & _).
    exists s'. rewrite Hrun. unfold shapes_of, g, layout. cbn [rf_records rf_type rf_box]. rewrite (denote_numbered (fun x => x)).
    do 4 f_equal. unfold declared_words. cbn [rf_records]. rewrite <- records_is_ref, zlen_records_from. unfold file_words. lia.
Qed.
