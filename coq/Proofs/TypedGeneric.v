(** C06: typed reads agree with generic reads followed by conversion; the type
    of a value, of its variant, of the record it was read from and the types
    named in conversion errors agree. *)
From SF Require Import Model.Bytes Model.ShapeType Model.Shapes Model.Res Model.Prog Model.Decode Model.Convert.
From SF Require Import Proofs.ShapeTypeProofs Proofs.ProgLemmas.
Open Scope Z_scope.

(** `Shape::shapetype(&self)` agrees with the type attached to the concrete Rust type. *)
Lemma shape_shapetype_type_of s : shape_shapetype s = type_of s.
Proof. destruct s as [|d p|d b ps|d b ps|d b ps|b ps]; try reflexivity; destruct d; reflexivity. Qed.

Definition returns_type (p : prog shape) (t : shape_type) : Prop :=
  forall s x s', run p s = (Ok x, s') -> type_of x = t.

Lemma rt_ret x t : type_of x = t -> returns_type (Ret x) t.
Proof. intros H s y s' E. cbn in E. injection E as <- _. exact H. Qed.

Lemma rt_fail e t : returns_type (Fail e) t.
Proof. intros s y s' E. cbn in E. discriminate. Qed.

Lemma rt_bind {A} (p : prog A) (f : A -> prog shape) t :
  (forall a, returns_type (f a) t) -> returns_type (bind p f) t.
Proof.
  intros H s x s' E. rewrite run_bind in E. destruct (run p s) as [[a|e|] s1]; try discriminate.
  exact (H a s1 x s' E).
Qed.

(* Walks a decoder: every leaf is a [Fail], or a [Ret] of a value whose type [reflexivity] computes. *)
Ltac rt :=
  repeat first
    [ apply rt_fail
    | apply rt_ret; reflexivity
    | apply rt_bind; intros ?
    | match goal with
      | |- returns_type (if ?c then _ else _) _ => destruct c
      | |- returns_type (match ?x with _ => _ end) _ => destruct x
      | |- returns_type (let '(_, _) := ?x in _) _ => destruct x
      end ].

Theorem read_content_type t size : returns_type (read_content t size) t.
Proof.
  destruct t; cbn [read_content];
    unfold read_point, read_multipoint, read_polyline, read_polygon, read_multipatch; rt.
Qed.

Theorem typed_read_from (t : shape_type) (record_size : Z) (s : src) (x : shape) (s' : src) :
  run (read_from None record_size) s = (Ok x, s') ->
  fst (run (read_from (Some t) record_size) s) = try_from t x.
Proof.
  unfold read_from. rewrite !run_bind. destruct (run read_shape_type s) as [[t0|e|] s1]; try discriminate.
  intros E. pose proof (read_content_type t0 _ s1 x s' E) as Ht.
  unfold try_from. rewrite (shape_shapetype_type_of x). rewrite Ht.
  destruct (st_eqb t0 t) eqn:Eq.
  - apply st_eqb_eq in Eq. subst t. rewrite E. reflexivity.
  - reflexivity.
Qed.

Theorem typed_read_one_shape (t : shape_type) (s : src) (h : Z * Z) (x : shape) (s' : src) :
  run (read_one_shape None) s = (Ok (h, x), s') ->
  fst (run (read_one_shape (Some t)) s) = rmap (fun y => (h, y)) (try_from t x).
Proof.
  unfold read_one_shape. rewrite !run_bind. destruct (run read_record_header s) as [[hdr|e|] s1]; try discriminate.
  destruct ((snd hdr * 2 <? 0) || (two31 <=? snd hdr * 2)); [cbn; discriminate|].
  rewrite !run_bind. destruct (run (read_from None (snd hdr * 2)) s1) as [[y|e|] s2] eqn:E; try discriminate.
  cbn [run]. intros H. injection H as <- <- _.
  pose proof (typed_read_from t _ s1 y s2 E) as Ht.
  destruct (run (read_from (Some t) (snd hdr * 2)) s1) as [[z|e|] s3]; cbn [fst] in Ht; rewrite <- Ht; reflexivity.
Qed.

Theorem try_from_spec t s :
  try_from t s = if st_eqb (type_of s) t then Ok s else Err (EMismatch t (type_of s)).
Proof. unfold try_from. rewrite (shape_shapetype_type_of s). reflexivity. Qed.

(** The first value of another type than [t]: where `convert_all` stops. *)
Fixpoint first_other (t : shape_type) (l : list shape) : option shape :=
  match l with
  | [] => None
  | s :: r => if st_eqb (type_of s) t then first_other t r else Some s
  end.
