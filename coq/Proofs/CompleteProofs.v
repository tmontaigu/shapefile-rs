(** For C08 (dbase modelled as an ordered row store): the complete writer
    accepts shape and row together ([cw_history]); [pairs_spec] is what an
    iteration of the complete reader is to yield.  The theorems on the pairing
    stand in Properties/C08.v. *)
From SF Require Import Model.Bytes Model.ShapeType Model.Shapes Model.Res Model.Writer Model.Complete.
From SF Require Import Proofs.BytesLemmas Proofs.WriterInv.
Open Scope Z_scope.

(** The shapes and row ids a history of calls leaves behind. *)
Fixpoint cacc (ss : list shape) (ids : list Z) (cs : list (shape * rowk * Z)) : list shape * list Z :=
  match cs with
  | [] => (ss, ids)
  | (s, k, id) :: r => if accepts_type ss s then cacc (ss ++ [s]) (ids ++ [id]) r else cacc ss ids r
  end.

Definition ccall_ok (c : shape * rowk * Z) : Prop := type_of (fst (fst c)) <> TNull /\ snd (fst c) = RowOk.

Lemma cw_rejected st w s k id e :
  w_write_shape (cw_shape st) w s = (Err e, cw_shape st, w) -> cw_write st w s k id = (Err e, st, w).
Proof. intros H. unfold cw_write. rewrite H. destruct st; reflexivity. Qed.

Lemma cacc_zlen cs : forall ss ids, zlen ids = zlen ss -> zlen (snd (cacc ss ids cs)) = zlen (fst (cacc ss ids cs)).
Proof.
  induction cs as [|[[s k] id] cs IH]; intros ss ids H; cbn [cacc]; [exact H|].
  destruct (accepts_type ss s); apply IH; [rewrite !zlen_app, H; reflexivity|exact H].
Qed.

Lemma cw_history : forall cs st w ss,
  WInv true (cw_shape st) w ss -> nonnull ss -> Forall ccall_ok cs ->
  exists rs st' w', cw_calls cs st w = (rs, st', w') /\
    WInv true (cw_shape st') w' (fst (cacc ss (cw_rows st) cs)) /\
    cw_rows st' = snd (cacc ss (cw_rows st) cs) /\
    Forall (fun r => r = Ok tt \/ exists a b, r = Err (EMismatch a b)) rs.
Proof.
  induction cs as [|[[s k] id] cs IH]; intros st w ss Inv Hss Hcs.
  - exists [], st, w. cbn. auto.
  - inversion Hcs as [|? ? [Hs Hk] Hcs']; subst. cbn [fst snd] in Hs, Hk. subst k. cbn [cw_calls cacc].
    destruct (accepts_type ss s) eqn:Ha.
    + destruct (write_accepted true (cw_shape st) w ss s Inv Hss Ha) as (st1 & w1 & E & Inv1). unfold cw_write. rewrite E.
      destruct (IH (mkcw st1 (cw_rows st ++ [id])) w1 (ss ++ [s]) Inv1) as (rs & st2 & w2 & E2 & Inv2 & R2 & F2);
        [apply Forall_app; auto|exact Hcs'|].
      rewrite E2. exists (Ok tt :: rs), st2, w2.
      split; [reflexivity|]. split; [exact Inv2|]. split; [exact R2|]. constructor; [left; reflexivity|exact F2].
    + destruct ss as [|s0 ss']; [discriminate|]. cbn [accepts_type] in Ha.
      rewrite (cw_rejected st w s RowOk id _ (write_rejected (cw_shape st) w ss' s0 s (inv_hdr _ _ _ _ Inv) (Forall_inv Hss) Ha)).
      destruct (IH st w (s0 :: ss') Inv Hss Hcs') as (rs & st2 & w2 & E2 & Inv2 & R2 & F2). rewrite E2.
      eexists (_ :: rs), st2, w2.
      split; [reflexivity|]. split; [exact Inv2|]. split; [exact R2|]. constructor; [right; eauto|exact F2].
Qed.

(** From position [k] with [fuel] pulls: the items, whether the iteration has
    ended, the position after it. *)
Definition pairs_spec (shapes : list shape) (rows : list Z) (k fuel : nat) : list (res (shape * Z)) * bool * nat :=
  let avail := combine (skipn k shapes) (skipn k rows) in
  if (length avail <? fuel)%nat then (map Ok avail, true, length shapes)
  else (map Ok (firstn fuel avail), false, (k + fuel)%nat).

Lemma pairs_spec_0 shapes rows k : pairs_spec shapes rows k 0 = ([], false, k).
Proof. unfold pairs_spec. rewrite Nat.add_0_r. reflexivity. Qed.

Lemma pairs_spec_end shapes rows k fuel : (length shapes <= k)%nat ->
  pairs_spec shapes rows k (S fuel) = ([], true, length shapes).
Proof. intros H. unfold pairs_spec. rewrite (skipn_all2 shapes) by exact H. reflexivity. Qed.

Lemma pairs_spec_cons shapes rows k fuel sh id : nth_error shapes k = Some sh -> nth_error rows k = Some id ->
  pairs_spec shapes rows k (S fuel)
  = let '(items, ended, n) := pairs_spec shapes rows (S k) fuel in (Ok (sh, id) :: items, ended, n).
Proof.
  intros Hs Hr. unfold pairs_spec. rewrite (skipn_cons_nth k shapes sh Hs), (skipn_cons_nth k rows id Hr). cbn [combine length].
  change (S (length (combine (skipn (S k) shapes) (skipn (S k) rows))) <? S fuel)%nat
    with (length (combine (skipn (S k) shapes) (skipn (S k) rows)) <? fuel)%nat.
  destruct (_ <? fuel)%nat; cbn [map firstn]; [reflexivity|]. rewrite Nat.add_succ_r. reflexivity.
Qed.

Lemma nth_row_some rows k id : nth_error rows k = Some id -> nth_row rows (Z.of_nat k) = Some id.
Proof. intros H. unfold nth_row. destruct (Z.ltb_spec (Z.of_nat k) 0); [lia|]. rewrite Nat2Z.id. exact H. Qed.
