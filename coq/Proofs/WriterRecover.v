(** C12 (continued): a finalize that failed harms nothing that follows.

    After a failed finalize the destinations are left positioned inside their
    headers and the writer is marked `finalize_interrupted`.  Once the
    destinations work again, EVERY continuation — more writes, accepted or
    rejected, finalizes in any place, drop — behaves exactly as in the
    undisturbed run: same results, same final files
    (C12_failed_finalize_harmless).  (Before the repair 276a00f the first write
    after the failed finalize overwrote the header: known finding F15.) *)
From SF Require Import Model.Shapes Model.Res Model.Writer.
From SF Require Import Proofs.WriterInv.
Open Scope Z_scope.

(** What every call of such a continuation maintains: the writer is ready for
    any call, and once it has nothing to commit it is in a state of an
    undisturbed history.  The first accepted write or finalize re-positions
    the destinations and restores [WInv]. *)
Definition Live (hs : bool) (st : wstate) (w : world) (ss : list shape) : Prop :=
  Ready hs st w ss /\ (ws_dirty st = false -> WInv hs st w ss).

Lemma WInv_Live hs st w ss : WInv hs st w ss -> Live hs st w ss.
Proof. intros Inv. split; [apply WInv_Ready, Inv|intros _; exact Inv]. Qed.

Lemma finalize_live hs st w ss : Live hs st w ss ->
  exists st' w', w_finalize st w = (Ok tt, st', w') /\ WInv hs st' w' ss /\ ws_dirty st' = false.
Proof.
  intros [Rd Hc]. destruct (ws_dirty st) eqn:Hd; [exact (finalize_ready hs st w ss Rd Hd)|exact (finalize_step hs st w ss (Hc eq_refl))].
Qed.

Lemma Live_closed hs : step_closed (Live hs).
Proof.
  split; [intros st w ss [Rd _]; apply Rd|]. split.
  - intros st w ss s [Rd _] Hss Ha.
    destruct (write_accepted_ready hs st w ss s Rd Hss Ha) as (st' & w' & E & Inv). eauto using WInv_Live.
  - intros st w ss L. destruct (finalize_live hs st w ss L) as (st' & w' & E & Inv & _). eauto using WInv_Live.
Qed.
