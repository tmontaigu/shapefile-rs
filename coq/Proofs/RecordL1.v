(** L1 (parse of encode): on the bytes of any conformant record of the ESRI
    layout, the library's record reader returns what the record denotes and
    consumes exactly the record. *)
From SF Require Import Model.Bytes Model.F64 Model.ShapeType Model.Decode Spec.Esri Spec.Denote.
From SF Require Import Proofs.BytesLemmas Proofs.ShapeTypeProofs Proofs.ProgLemmas Proofs.DecodePrims
  Proofs.DecodePoints Proofs.DecodeParts.
Open Scope Z_scope.

(* Keeps [cbn] and [simpl] from unfolding the codecs into byte arithmetic; these
   settings are global and hold in every file that imports this one. *)
Arguments f64_enc : simpl never.
Arguments i32_le : simpl never.
Arguments i32_be : simpl never.
Arguments le_bytes : simpl never.
Arguments f64s : simpl never.
Arguments i32s : simpl never.

Lemma L1_multi t b : is_multi_type t = true -> body_conformant t b ->
  reads (read_content t (zlen (ref_body_bytes t b))) (ref_body_bytes t b) (denote_multi t b).
Proof.
  intros Ht Hb. destruct t; try discriminate Ht; cbn [read_content]; unfold read_polyline, read_polygon.
  - rlast (reads_polyline_conf TPolyline b). exact (reads_ret _).
  - rlast (reads_polyline_conf TPolygon b). exact (reads_ret _).
  - exact (reads_multipoint_conf TMultipoint b eq_refl Hb).
  - rlast (reads_polyline_conf TPolylineZ b). exact (reads_ret _).
  - rlast (reads_polyline_conf TPolygonZ b). exact (reads_ret _).
  - exact (reads_multipoint_conf TMultipointZ b eq_refl Hb).
  - rlast (reads_polyline_conf TPolylineM b). exact (reads_ret _).
  - rlast (reads_polyline_conf TPolygonM b). exact (reads_ret _).
  - exact (reads_multipoint_conf TMultipointM b eq_refl Hb).
  - exact (reads_multipatch_conf b Hb).
Qed.

Theorem L1_fields r : rec_conformant r ->
  reads (read_content (ref_type r) (zlen (ref_fields r))) (ref_fields r) (denote r).
Proof.
  intros Hc. destruct r as [|x y|x y m|x y z m|t b]; cbn [ref_type ref_fields denote rec_conformant] in *.
  - apply reads_ret.
  - destruct Hc as [Hx Hy]. replace (zlen (f64s [x; y])) with 16 by (rewrite zlen_f64s; reflexivity).
    unfold f64s. cbn [read_content read_point flat_map Z.eqb Pos.eqb]. do 2 rstep reads_f64. apply reads_ret.
  - destruct Hc as (Hx & Hy & Hm). replace (zlen (f64s [x; y; m])) with 24 by (rewrite zlen_f64s; reflexivity).
    unfold f64s. cbn [read_content read_point flat_map Z.eqb Pos.eqb]. do 3 rstep reads_f64. apply reads_ret.
  - destruct Hc as (Hx & Hy & Hz & Hm). destruct m as [m|].
    + replace (zlen (f64s [x; y; z] ++ f64_enc m)) with 32
        by (rewrite zlen_app, zlen_f64s, zlen_f64_enc; reflexivity).
      unfold f64s. cbn [read_content read_point flat_map Z.eqb Pos.eqb]. app_norm. do 3 rstep reads_f64.
      rlast reads_f64. apply reads_ret.
    + rewrite app_nil_r. replace (zlen (f64s [x; y; z])) with 24 by (rewrite zlen_f64s; reflexivity).
      unfold f64s. cbn [read_content read_point flat_map Z.eqb Pos.eqb]. do 3 rstep reads_f64. apply reads_ret.
  - destruct Hc as [Ht Hb]. apply L1_multi; assumption.
Qed.

(** What a reader asked for [req] accepts: the generic reader everything, a
    typed reader the records of its type. *)
Definition accepts (req : option shape_type) (r : ref_rec) : Prop :=
  match req with None => True | Some t => ref_type r = t end.

Lemma zlen_ref_content r : zlen (ref_content r) = 4 + zlen (ref_fields r).
Proof. unfold ref_content. rewrite zlen_app, zlen_i32_le. reflexivity. Qed.

Theorem L1_read_from req r : rec_conformant r -> accepts req r ->
  reads (read_from req (zlen (ref_content r))) (ref_content r) (denote r).
Proof.
  intros Hc Ha. unfold read_from.
  eapply (reads_bind _ _ (i32_le (st_code (ref_type r))) (ref_fields r)); [apply reads_shape_type|]. cbn beta zeta.
  replace (zlen (ref_content r) - 4) with (zlen (ref_fields r)) by (rewrite zlen_ref_content; lia).
  destruct req as [t|]; cbn [accepts] in Ha.
  - subst t. rewrite st_eqb_refl. apply L1_fields, Hc.
  - apply L1_fields, Hc.
Qed.

(** Every field is 4 or 8 bytes, so contents have an even length: evenness
    passes through concatenation and choice. *)
Lemma even_app (a b : bytes) : (2 | zlen a) -> (2 | zlen b) -> (2 | zlen (a ++ b)).
Proof. rewrite zlen_app. apply Z.divide_add_r. Qed.

Lemma even_if (c : bool) (a b : bytes) : (2 | zlen a) -> (2 | zlen b) -> (2 | zlen (if c then a else b)).
Proof. destruct c; auto. Qed.

Lemma even_nil : (2 | zlen (@nil Z)).
Proof. apply Z.divide_0_r. Qed.

Lemma even_i32_le v : (2 | zlen (i32_le v)).
Proof. rewrite zlen_i32_le. exists 2; reflexivity. Qed.

Lemma even_f64_enc v : (2 | zlen (f64_enc v)).
Proof. rewrite zlen_f64_enc. exists 4; reflexivity. Qed.

Lemma even_i32s l : (2 | zlen (i32s l)).
Proof. rewrite zlen_i32s. exists (2 * zlen l); lia. Qed.

Lemma even_f64s l : (2 | zlen (f64s l)).
Proof. rewrite zlen_f64s. exists (4 * zlen l); lia. Qed.

Lemma even_xys (l : list (f64 * f64)) :
  (2 | zlen (flat_map (fun p => f64_enc (fst p) ++ f64_enc (snd p)) l)).
Proof. change (2 | zlen (flat_map xy_enc l)). rewrite zlen_xys. exists (8 * zlen l); lia. Qed.

Create HintDb even.
#[local] Hint Resolve even_app even_if even_nil even_i32_le even_f64_enc even_i32s even_f64s even_xys : even.

Lemma ref_content_div2 r : (2 | zlen (ref_content r)).
Proof.
  unfold ref_content. apply even_app; [apply even_i32_le|].
  destruct r as [|x y|x y m|x y z [m|]|t b]; cbn [ref_fields]; auto with even.
  unfold ref_body_bytes. destruct (rb_box b) as [[[xmin ymin] xmax] ymax], (rb_m b) as [[mr ms]|];
    auto 12 with even.
Qed.

Lemma ref_content_even r : 2 * (zlen (ref_content r) / 2) = zlen (ref_content r).
Proof. destruct (ref_content_div2 r) as [k ->]. rewrite Z.div_mul by lia. lia. Qed.

Theorem L1_record req num r :
  in_i32 num -> rec_conformant r -> zlen (ref_content r) < two31 -> accepts req r ->
  reads (read_one_shape req) (ref_record num r) ((num, zlen (ref_content r) / 2), denote r).
Proof.
  intros Hnum Hc Hlt Ha. unfold read_one_shape, ref_record, read_record_header.
  pose proof (ref_content_even r) as Hev. pose proof (zlen_nonneg (ref_content r)) as Hnn.
  assert (Hw : in_i32 (zlen (ref_content r) / 2)) by (unfold in_i32, two31 in *; lia).
  rewrite app_assoc. eapply reads_bind.
  { rstep reads_i32_be. rlast reads_i32_be. apply reads_ret. }
  cbn [snd]. replace (zlen (ref_content r) / 2 * 2) with (zlen (ref_content r)) by lia.
  rewrite (proj2 (Z.ltb_ge _ 0) Hnn), (proj2 (Z.leb_gt _ _) Hlt). cbn [orb].
  rlast L1_read_from. apply reads_ret.
Qed.
