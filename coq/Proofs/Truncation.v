(** C13, truncation: reading a valid file cut at any length never invents
    data — every record wholly inside the retained bytes is returned, the cut
    record is an UnexpectedEof, and the iteration ends. *)
From SF Require Import Model.Bytes Model.Res Model.Prog Model.Reader Spec.Esri Spec.Denote.
From SF Require Import Proofs.BytesLemmas Proofs.ReaderSteps Proofs.ReaderSeq.
Open Scope Z_scope.

(** The longest prefix of the records that fits in [m] bytes (C13_inside_is_prefix). *)
Fixpoint inside (m : Z) (rs : list (Z * ref_rec)) : list (Z * ref_rec) :=
  match rs with
  | [] => []
  | (n, r) :: rest =>
      if zlen (ref_record n r) <=? m then (n, r) :: inside (m - zlen (ref_record n r)) rest else []
  end.

(* [inside] writes the test of [seq_step] with the position on the other side. *)
Lemma leb_sub_add a p K : (a <=? K - p) = (p + a <=? K).
Proof. apply Bool.eq_iff_eq_true. rewrite !Z.leb_le. lia. Qed.

Theorem truncated_iteration req data K : forall rs st s,
  seq_at data K st s rs -> flen_bytes st = r_cur st + zlen (ref_records_bytes rs) ->
  Forall (record_ok req) rs -> s_pos s <= K < s_pos s + zlen (ref_records_bytes rs) ->
  exists st' s',
    run (it_pull (S (S (length rs))) req st) s
    = (Ok (map (fun nr => Ok (denote (snd nr))) (inside (K - s_pos s) rs) ++ [Err EIoEof], true, st'), s').
Proof.
  induction rs as [|[num r] rs IH]; intros st s Hat Hlen Hok HK; [cbn in HK; lia|].
  inversion Hok as [|? ? Hok1 Hok2]; subst. rewrite ref_records_cons, zlen_app in Hlen, HK. cbn [fst snd] in Hlen, HK.
  pose proof (ref_record_pos num r). pose proof (zlen_nonneg (ref_records_bytes rs)).
  pose proof (seq_step req _ _ st s num r rs Hat Hok1 ltac:(lia)) as Hstep. cbv zeta in Hstep.
  cbn [inside length]. rewrite leb_sub_add. destruct (s_pos s + zlen (ref_record num r) <=? K) eqn:Ein.
  - apply Z.leb_le in Ein. destruct Hstep as (s1 & Hat1 & Hp1 & Hpull).
    destruct (IH _ s1 Hat1) as (st2 & s2 & Hrun2); [rewrite flen_bytes_set_cur; cbn [set_cur r_cur]; lia|exact Hok2|lia|].
    exists st2, s2. replace (K - s_pos s - zlen (ref_record num r)) with (K - s_pos s1) by lia.
    exact (Hpull _ _ _ _ _ Hrun2).
  - destruct Hstep as (s2 & Herr). eexists. exists s2. apply Herr.
Qed.
