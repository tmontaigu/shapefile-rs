(** Sibling file names and the directory: the laws the path-based API rests on. *)
From SF Require Import Model.Bytes Model.Writer Model.Paths.
From SF Require Import Proofs.WriterInv.
Open Scope Z_scope.

Lemma name_eqb_eq a b : name_eqb a b = true <-> a = b.
Proof. unfold name_eqb. destruct (list_eq_dec Z.eq_dec a b); split; congruence. Qed.

Lemma name_eqb_refl a : name_eqb a a = true.
Proof. apply name_eqb_eq. reflexivity. Qed.

Lemma name_eqb_neq a b : a <> b -> name_eqb a b = false.
Proof. intros H. destruct (name_eqb a b) eqn:E; [apply name_eqb_eq in E; contradiction|reflexivity]. Qed.

Lemma cut_none n : cut_last_dot n = None <-> ~ In DOT n.
Proof.
  induction n as [|c r IH]; cbn [cut_last_dot In]; [tauto|].
  destruct (cut_last_dot r) as [[b a]|].
  - split; [discriminate|]. intros H. exfalso. apply H. right.
    destruct (in_dec Z.eq_dec DOT r) as [i|ni]; [exact i|]. apply IH in ni. discriminate.
  - destruct (Z.eqb_spec c DOT) as [->|ne].
    + split; [discriminate|]. intros H. exfalso. apply H. left. reflexivity.
    + split; [|reflexivity]. intros _ [H|H]; [congruence|]. apply (proj1 IH); [reflexivity|exact H].
Qed.

Lemma cut_spec n b a : cut_last_dot n = Some (b, a) -> n = b ++ DOT :: a /\ ~ In DOT a.
Proof.
  revert b a. induction n as [|c r IH]; intros b a; cbn [cut_last_dot]; [discriminate|].
  destruct (cut_last_dot r) as [[b' a']|] eqn:E.
  - intros H. injection H as <- <-. destruct (IH b' a' eq_refl) as [-> Hn]. split; [reflexivity|exact Hn].
  - destruct (Z.eqb_spec c DOT) as [->|ne]; [|discriminate].
    intros H. injection H as <- <-. split; [reflexivity|]. apply cut_none. exact E.
Qed.

Lemma cut_app b a : ~ In DOT a -> cut_last_dot (b ++ DOT :: a) = Some (b, a).
Proof.
  intros Ha. induction b as [|c b IH]; cbn [app cut_last_dot].
  - rewrite (proj2 (cut_none a) Ha). rewrite Z.eqb_refl. reflexivity.
  - rewrite IH. reflexivity.
Qed.

Lemma stem_nonempty n : n <> [] -> file_stem n <> [].
Proof. intros Hn. unfold file_stem. destruct (cut_last_dot n) as [[[|c b] a]|]; try exact Hn; discriminate. Qed.

Lemma stem_of_app s e : s <> [] -> ~ In DOT e -> file_stem (s ++ DOT :: e) = s.
Proof. intros Hs He. unfold file_stem. rewrite (cut_app s e He). destruct s; [contradiction|reflexivity]. Qed.

Lemma extension_of_app s e : s <> [] -> ~ In DOT e -> extension (s ++ DOT :: e) = Some e.
Proof. intros Hs He. unfold extension. rewrite (cut_app s e He). destruct s; [contradiction|reflexivity]. Qed.

Lemma extension_spec n e : extension n = Some e -> n = with_ext n e /\ ~ In DOT e /\ file_stem n <> [].
Proof.
  unfold extension, with_ext, file_stem. destruct (cut_last_dot n) as [[[|c b] a]|] eqn:E; try discriminate.
  intros H. injection H as <-. destruct (cut_spec n _ _ E) as [Hn Ha]. split; [exact Hn|split; [exact Ha|discriminate]].
Qed.

(** The siblings of a sibling are the siblings: the .dbf next to the .shx is the .dbf next to the .shp. *)
Theorem with_ext_with_ext n e e' : n <> [] -> ~ In DOT e -> with_ext (with_ext n e) e' = with_ext n e'.
Proof. intros Hn He. unfold with_ext at 1 3. unfold with_ext. rewrite (stem_of_app _ e (stem_nonempty n Hn) He). reflexivity. Qed.

Theorem with_ext_extension n e : n <> [] -> ~ In DOT e -> extension (with_ext n e) = Some e.
Proof. intros Hn He. apply extension_of_app; [apply stem_nonempty, Hn|exact He]. Qed.

Theorem with_ext_inj n m e1 e2 : n <> [] -> m <> [] -> ~ In DOT e1 -> ~ In DOT e2 ->
  with_ext n e1 = with_ext m e2 -> file_stem n = file_stem m /\ e1 = e2.
Proof.
  intros Hn Hm H1 H2 H. unfold with_ext in H.
  pose proof (cut_app (file_stem n) e1 H1) as C1. rewrite H, (cut_app (file_stem m) e2 H2) in C1.
  injection C1 as -> ->. split; reflexivity.
Qed.

(** Two different names with the same extension have no sibling in common. *)
Theorem siblings_disjoint p q e e1 e2 : extension p = Some e -> extension q = Some e -> p <> q ->
  ~ In DOT e1 -> ~ In DOT e2 -> with_ext p e1 <> with_ext q e2.
Proof.
  intros Hp Hq Hne H1 H2 H.
  destruct (extension_spec p e Hp) as (Ep & _ & Sp). destruct (extension_spec q e Hq) as (Eq & _ & Sq).
  assert (Np : p <> []) by (intros ->; discriminate Hp). assert (Nq : q <> []) by (intros ->; discriminate Hq).
  destruct (with_ext_inj p q e1 e2 Np Nq H1 H2 H) as [Hs _].
  apply Hne. rewrite Ep, Eq. unfold with_ext. rewrite Hs. reflexivity.
Qed.

Theorem siblings_distinct n e1 e2 : e1 <> e2 -> with_ext n e1 <> with_ext n e2.
Proof. intros Hne H. unfold with_ext in H. apply app_inv_head in H. injection H as H. contradiction. Qed.

Lemma dotfree_SHX : ~ In DOT SHX. Proof. cbv; intuition discriminate. Qed.
Lemma dotfree_DBF : ~ In DOT DBF. Proof. cbv; intuition discriminate. Qed.
Lemma dotfree_SHP : ~ In DOT SHP. Proof. cbv; intuition discriminate. Qed.

Lemma fs_get_set_same f n c : fs_get (fs_set f n c) n = Some c.
Proof.
  induction f as [|[m d] r IH]; cbn [fs_set fs_get]; [rewrite name_eqb_refl; reflexivity|].
  destruct (name_eqb m n) eqn:E; cbn [fs_get]; [rewrite name_eqb_refl; reflexivity|rewrite E; exact IH].
Qed.

Lemma fs_get_set_other f n c m : m <> n -> fs_get (fs_set f n c) m = fs_get f m.
Proof.
  intros Hne. induction f as [|[k d] r IH]; cbn [fs_set fs_get].
  - rewrite (name_eqb_neq n m); [reflexivity|congruence].
  - destruct (name_eqb k n) eqn:E; cbn [fs_get].
    + apply name_eqb_eq in E. subst k. rewrite (name_eqb_neq n m); [reflexivity|congruence].
    + destruct (name_eqb k m); [reflexivity|exact IH].
Qed.

Lemma fs_get_remove_other f n m : m <> n -> fs_get (fs_remove f n) m = fs_get f m.
Proof.
  intros Hne. induction f as [|[k d] r IH]; cbn [fs_remove fs_get]; [reflexivity|].
  destruct (name_eqb k n) eqn:E; cbn [fs_get].
  - apply name_eqb_eq in E. subst k. rewrite (name_eqb_neq n m); [reflexivity|congruence].
  - destruct (name_eqb k m); [reflexivity|exact IH].
Qed.

Definition dir_ok (f : dir) : Prop := NoDup (map fst f).

Lemma fs_set_names f n c x : In x (map fst (fs_set f n c)) -> x = n \/ In x (map fst f).
Proof.
  induction f as [|[k d] r IH]; cbn [fs_set map fst In]; [intuition congruence|].
  destruct (name_eqb k n) eqn:E; cbn [map fst In].
  - apply name_eqb_eq in E. subst k. intuition congruence.
  - intros [H|H]; [tauto|]. destruct (IH H); tauto.
Qed.

Lemma fs_set_ok f n c : dir_ok f -> dir_ok (fs_set f n c).
Proof.
  unfold dir_ok. induction f as [|[k d] r IH]; cbn [fs_set map fst]; intros H.
  - constructor; [intros []|constructor].
  - inversion H as [|? ? Hk Hr]; subst. destruct (name_eqb k n) eqn:E; cbn [map fst].
    + apply name_eqb_eq in E. subst k. constructor; assumption.
    + constructor; [|apply IH, Hr]. intros Hin. destruct (fs_set_names r n c k Hin) as [->|Hin'];
        [rewrite name_eqb_refl in E; discriminate|contradiction].
Qed.

Lemma fs_get_absent f n : ~ In n (map fst f) -> fs_get f n = None.
Proof.
  induction f as [|[k d] r IH]; cbn [fs_get map fst In]; intros H; [reflexivity|].
  rewrite (name_eqb_neq k n), IH; tauto.
Qed.

Lemma fs_get_remove_same f n : dir_ok f -> fs_get (fs_remove f n) n = None.
Proof.
  unfold dir_ok. induction f as [|[k d] r IH]; cbn [fs_remove fs_get map fst]; intros H; [reflexivity|].
  inversion H as [|? ? Hk Hr]; subst. destruct (name_eqb k n) eqn:E; cbn [fs_get].
  - apply name_eqb_eq in E. subst k. apply fs_get_absent, Hk.
  - rewrite E. apply IH, Hr.
Qed.

Section ByPath.
  Variable f : dir.
  Variable n : fname.
  Hypothesis Hn : with_ext n SHX <> n.  (* a name with the extension "shx" would be its own index file *)

  (** Whatever the directory held before — older, longer files under the same
      names included — opening the path afterwards yields exactly the bytes
      the in-memory destinations hold, index included... *)
  Theorem open_after_write w :
    sr_open (sw_store (sw_create f n) n w) n = OOpen (fst (files w)) (Some (snd (files w))).
  Proof.
    unfold sr_open, sw_store, files. cbn [fst snd].
    rewrite (fs_get_set_other _ _ _ n) by congruence. rewrite fs_get_set_same, fs_get_set_same. reflexivity.
  Qed.

  (** ...and every other file is what it was. *)
  Theorem write_frame w m : m <> n -> m <> with_ext n SHX -> fs_get (sw_store (sw_create f n) n w) m = fs_get f m.
  Proof.
    intros H1 H2. unfold sw_store, sw_create. rewrite !fs_get_set_other by assumption. reflexivity.
  Qed.

  (** Without the index file the reader opens without index. *)
  Theorem open_without_shx w : dir_ok f ->
    sr_open (fs_remove (sw_store (sw_create f n) n w) (with_ext n SHX)) n = OOpen (fst (files w)) None.
  Proof.
    intros Hok. unfold sr_open. rewrite fs_get_remove_other by congruence.
    rewrite fs_get_remove_same by (unfold sw_store, sw_create; repeat apply fs_set_ok; exact Hok).
    unfold sw_store, files. cbn [fst]. rewrite (fs_get_set_other _ _ _ n) by congruence. rewrite fs_get_set_same. reflexivity.
  Qed.
End ByPath.

Lemma sr_open_frame f f' n :
  fs_get f' n = fs_get f n -> fs_get f' (with_ext n SHX) = fs_get f (with_ext n SHX) -> sr_open f' n = sr_open f n.
Proof. unfold sr_open. intros -> ->. reflexivity. Qed.

Lemma other_shapefile_frame f p q e w :
  extension p = Some e -> extension q = Some e -> p <> q -> sr_open (sw_store (sw_create f q) q w) p = sr_open f p.
Proof.
  intros Hp Hq Hne.
  destruct (extension_spec p e Hp) as (Ep & He & _). destruct (extension_spec q e Hq) as (Eq & _ & _).
  apply sr_open_frame; apply write_frame.
  - exact Hne.
  - rewrite Ep. apply siblings_disjoint with e; auto using dotfree_SHX.
  - rewrite Eq. apply siblings_disjoint with e; auto using dotfree_SHX.
  - apply siblings_disjoint with e; auto using dotfree_SHX.
Qed.

(** A second shapefile written next to the first one (another name with the
    same extension) leaves the first one as it was. *)
Theorem second_shapefile_harmless f p q e w1 w2 :
  extension p = Some e -> extension q = Some e -> p <> q -> with_ext p SHX <> p ->
  let f1 := sw_store (sw_create f p) p w1 in
  let f2 := sw_store (sw_create f1 q) q w2 in
  sr_open f2 p = OOpen (fst (files w1)) (Some (snd (files w1))).
Proof.
  intros Hp Hq Hne Hx f1 f2. subst f2. rewrite (other_shapefile_frame f1 p q e w2 Hp Hq Hne).
  exact (open_after_write f p Hx w1).
Qed.

(** A history through `ShapeWriter::from_path(n)` that is modelled: the name is
    not its own index, and the directory receives the two destinations. *)
Lemma write_by_path_some f n cs e rs f' : write_by_path f n cs e = Some (rs, f') ->
  with_ext n SHX <> n /\ rs = fst (run_history true world0 cs e) /\
  f' = sw_store (sw_create f n) n (snd (run_history true world0 cs e)).
Proof.
  unfold write_by_path. destruct (name_eqb (with_ext n SHX) n) eqn:En; [discriminate|].
  destruct (run_history true world0 cs e) as [rs0 w]. intros H. injection H as <- <-.
  split; [|split; reflexivity]. intros H. apply name_eqb_eq in H. congruence.
Qed.
