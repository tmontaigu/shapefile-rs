(** C11, the route through the index: the .shx side of C11_crash_prefix_index. *)
From SF Require Import Model.Bytes Model.Res Model.Prog Model.Decode Spec.Esri Spec.Layout.
From SF Require Import Proofs.ProgLemmas Proofs.WriterInv Proofs.EncodeRef Proofs.IndexFiles
  Proofs.CrashRead Proofs.CrashStates
  Proofs.CrashIndex.
Open Scope Z_scope.

Lemma firstn_map_firstn {A B} (f : A -> B) j (l : list A) : map f (firstn j l) = firstn j (map f l).
Proof. symmetry. apply firstn_map. Qed.

Lemma shx_crash_index ss shx idx sx : FileFits ss -> crash_form (index_from 50 ss) shx ->
  run read_index_file (src_of shx) = (Ok idx, sx) ->
  exists c, idx = firstn c (ref_index_entries 50 (numbered 1 (map rec_of_shape ss))).
Proof.
  intros Hf C Hidx. rewrite (index_is_ref 50 1 ss (FileFits_words ss Hf)) in C.
  destruct (crash_form_cases _ _ C) as [Hshort|(Hx' & mx & HHx & _ & ->)].
  - exfalso. unfold read_index_file in Hidx. stepn Hidx h s1 Eh. exact (short_header_fails shx h s1 Hshort Eh).
  - destruct (read_index_crash Hx' _ mx idx sx HHx (written_index_in_i32 ss Hf) Hidx) as (c & -> & _). exists c. reflexivity.
Qed.
