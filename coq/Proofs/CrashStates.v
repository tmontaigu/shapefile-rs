(** C11, writer side: every byte-level prefix of the operations the writer
    issued to a destination leaves a buffer of the form H' ++ (byte-prefix of
    the destination's stream: the records on the .shp, the index entries on the
    .shx), where H' is 100 bytes (any mixture of an old and a new header) or,
    before the first header is complete, fewer with nothing after. *)
From SF Require Import Model.Bytes Model.Shapes Model.Encode Model.Writer.
From SF Require Import Proofs.BytesLemmas Proofs.HeaderMix Proofs.WriterCore Proofs.WriterInv
  Proofs.WriterFaults.
Open Scope Z_scope.

(** Every write split into single-byte writes: the prefixes of [explode ops] are
    the cuts of [ops] at any byte. *)
Fixpoint explode (ops : list wop) : list wop :=
  match ops with
  | [] => []
  | WriteAll bs :: r => map (fun b => WriteAll [b]) bs ++ explode r
  | op :: r => op :: explode r
  end.

Lemma explode_app a b : explode (a ++ b) = explode a ++ explode b.
Proof. induction a as [|op a IH]; [reflexivity|]. destruct op; cbn [app explode]; rewrite IH, ?app_assoc; reflexivity. Qed.

Definition units (bs : bytes) : chunks := map (fun b => [b]) bs.

Lemma concat_units bs : concat (units bs) = bs.
Proof. induction bs as [|b r IH]; [reflexivity|]. cbn [units map concat app]. f_equal. exact IH. Qed.

Lemma explode_writes cs : explode (map WriteAll cs) = map WriteAll (units (concat cs)).
Proof.
  induction cs as [|c cs IH]; [reflexivity|]. cbn [map explode concat]. unfold units in *. rewrite IH, !map_app, !map_map. reflexivity.
Qed.

Lemma header_units_len h : length (concat (units (header_bytes h))) = 100%nat.
Proof. rewrite concat_units. apply header_bytes_len. Qed.

Lemma explode_fin_ops h : explode (fin_ops h) = WSeekStart 0 :: map WriteAll (units (header_bytes h)) ++ [WSeekEnd; WFlush].
Proof. unfold fin_ops. cbn [explode]. rewrite explode_app, explode_writes. reflexivity. Qed.

Lemma explode_dest_ops first int hc cs :
  explode (dest_ops first int hc cs) = dest_ops first int (units (concat hc)) (units (concat cs)).
Proof.
  unfold dest_ops. rewrite !explode_app, explode_writes. destruct first, int; cbn [explode]; rewrite ?explode_writes; reflexivity.
Qed.

Definition crash_form (R buf : bytes) : Prop :=
  exists H' m, buf = H' ++ firstn m R /\ slot H' (firstn m R).

Lemma crash_form_skipn R buf m : skipn 100 buf = firstn m R -> crash_form R buf.
Proof. intros E. destruct (skipn_slot buf) as (H & Eb & Hs). rewrite E in Eb, Hs. exists H, m. split; assumption. Qed.

Lemma crash_form_mono R X buf : crash_form R buf -> crash_form (R ++ X) buf.
Proof.
  intros (H' & m & E & S). exists H', (Nat.min m (length R)). rewrite (firstn_min m R) in E, S.
  rewrite firstn_app. replace (Nat.min m (length R) - length R)%nat with 0%nat by lia. cbn [firstn]. rewrite app_nil_r.
  split; assumption.
Qed.

Lemma crash_form_cases R buf : crash_form R buf ->
  (length buf < 100)%nat \/ exists H' m, length H' = 100%nat /\ (m <= length R)%nat /\ buf = H' ++ firstn m R.
Proof.
  intros (H' & m & -> & [[E Hle]|Hl]).
  - rewrite E, app_nil_r. destruct (Nat.eq_dec (length H') 100) as [Hl|Hne]; [right|left; lia].
    exists H', 0%nat. split; [exact Hl|]. split; [lia|symmetry; apply app_nil_r].
  - right. exists H', (Nat.min m (length R)). split; [exact Hl|]. split; [lia|]. rewrite <- firstn_min. reflexivity.
Qed.

(* The writer seeks to offset 0 or to the end only, so the position stays
   within the buffer, as [bp_write_chunks] asks. *)
Definition seek0 (op : wop) : Prop := match op with WSeekStart p => p = 0 | _ => True end.

Lemma bp_ops_explode : forall ops buf pos, (pos <= length buf)%nat -> Forall seek0 ops ->
  bp_ops (explode ops) (buf, pos) = bp_ops ops (buf, pos) /\
  (snd (bp_ops ops (buf, pos)) <= length (fst (bp_ops ops (buf, pos))))%nat.
Proof.
  induction ops as [|op ops IH]; intros buf pos Hp Hs; [split; [reflexivity|exact Hp]|].
  inversion Hs as [|? ? Hop Hs']; subst. destruct op as [bs|q| |]; cbn [explode].
  - replace (map (fun b => WriteAll [b]) bs) with (map WriteAll (units bs)) by apply map_map.
    rewrite bp_ops_app, bp_write_chunks, concat_units by exact Hp.
    change (bp_ops (WriteAll bs :: ops) (buf, pos)) with (bp_ops ops (write_at buf pos bs, (pos + length bs)%nat)).
    apply IH; [|exact Hs']. rewrite write_at_length by exact Hp. lia.
  - cbn in Hop. subst q.
    change (bp_ops (WSeekStart 0 :: explode ops) (buf, pos)) with (bp_ops (explode ops) (buf, 0%nat)).
    change (bp_ops (WSeekStart 0 :: ops) (buf, pos)) with (bp_ops ops (buf, 0%nat)). apply IH; [lia|exact Hs'].
  - change (bp_ops (WSeekEnd :: explode ops) (buf, pos)) with (bp_ops (explode ops) (buf, length buf)).
    change (bp_ops (WSeekEnd :: ops) (buf, pos)) with (bp_ops ops (buf, length buf)). apply IH; [lia|exact Hs'].
  - change (bp_ops (WFlush :: explode ops) (buf, pos)) with (bp_ops (explode ops) (buf, pos)).
    change (bp_ops (WFlush :: ops) (buf, pos)) with (bp_ops ops (buf, pos)). apply IH; [exact Hp|exact Hs'].
Qed.

Lemma seek0_writes cs : Forall seek0 (map WriteAll cs).
Proof. induction cs; cbn [map]; constructor; [exact I|assumption]. Qed.

Lemma seek0_fin_ops h : Forall seek0 (fin_ops h).
Proof. constructor; [reflexivity|]. apply Forall_app. split; [apply seek0_writes|repeat constructor]. Qed.

Lemma seek0_dest_ops first int hc cs : Forall seek0 (dest_ops first int hc cs).
Proof.
  unfold dest_ops. repeat (apply Forall_app; split); [destruct first|destruct int|]; repeat constructor; apply seek0_writes.
Qed.

Definition trace (d : wdev) : list wop := rev (d_log d).

(** The crash invariant of a destination, for a property [F] of buffers: the log
    replays to the present buffer, and every byte-level cut of the log that
    extends [tc] leaves a buffer satisfying [F].  [tc] is empty for the crash
    form ([DevCrash]) and is the log up to a completed finalize for the
    committed form ([CommitInv], CrashCommit.v). *)
Definition Cuts (tc : list wop) (F : bytes -> Prop) (d : wdev) : Prop :=
  bp_ops (explode (trace d)) ([], 0%nat) = bp_of d /\
  forall p, is_prefix p (explode (trace d)) -> is_prefix tc p -> F (fst (bp_ops p ([], 0%nat))).

Lemma Cuts_replay tc F d : Cuts tc F d -> bp_ops (explode (trace d)) ([], 0%nat) = bp_of d.
Proof. intros C. apply C. Qed.

Lemma Cuts_cut tc F d p : Cuts tc F d -> is_prefix p (explode (trace d)) -> is_prefix tc p -> F (fst (bp_ops p ([], 0%nat))).
Proof. intros C. apply C. Qed.

(** The destination receives [O]: the earlier cuts keep their buffers, the
    later ones are the present buffer after a cut of [O]. *)
Lemma cuts_step tc (F F' : bytes -> Prop) d d' O :
  Cuts tc F d -> advances d d' O -> Forall seek0 O -> (snd (bp_of d) <= length (fst (bp_of d)))%nat ->
  (forall buf, F buf -> F' buf) ->
  (forall q, is_prefix q (explode O) -> F' (fst (bp_ops q (bp_of d)))) ->
  Cuts tc F' d'.
Proof.
  intros [Hfull Hpre] (Hb & Ht & _) Hs Hpos Hmono Hq. unfold Cuts, trace in *. rewrite Ht, explode_app. split.
  - rewrite bp_ops_app, Hfull, Hb. destruct (bp_of d) as [buf pos]. apply bp_ops_explode; assumption.
  - intros p Hp Hext. destruct (is_prefix_app_cases p _ _ Hp) as [Hp1|(q & -> & Hq1)].
    + apply Hmono, Hpre; assumption.
    + rewrite bp_ops_app, Hfull. apply Hq, Hq1.
Qed.

Definition DevCrash (R : bytes) (d : wdev) : Prop := Cuts [] (crash_form R) d.

Lemma crash_init : DevCrash [] wdev_empty.
Proof.
  split; [reflexivity|]. intros p Hp _. cbn in Hp. inversion Hp; subst. apply (crash_form_skipn _ _ 0). reflexivity.
Qed.

Lemma hdr_slot_slot' H R : hdr_slot H R -> slot H R.
Proof. intros [[-> ->]|Hl]; [left; split; [reflexivity|cbn; lia]|right; exact Hl]. Qed.

Lemma finalize_crash t hs : dest_on hs t = true -> forall st w ss, WInv hs st w ss ->
  DevCrash (stream t ss) (get_dev w t) -> DevCrash (stream t ss) (get_dev (snd (w_finalize st w)) t).
Proof.
  intros Ht st w ss Inv HC. destruct (ws_dirty st) eqn:Hd; [|rewrite (finalize_clean_silent st w Hd); exact HC].
  destruct (WInv_Ready hs st w ss Inv) as [Hwf Hh Hr Hhs Hdev _]. destruct (Hdev t Ht) as [Hb Hp].
  destruct (finalize_run hs st w ss Hwf Hh Hr Hhs Hd) as (w' & E & _ & Adv). rewrite E. cbn [snd].
  destruct (Adv t) as [A _]. rewrite Ht in A.
  apply (cuts_step _ _ _ _ _ _ HC A); [apply seek0_fin_ops|rewrite (Hp (inv_int _ _ _ _ Inv)); apply Nat.le_refl|exact (fun _ H => H)|].
  intros q Hq. rewrite explode_fin_ops in Hq. apply (crash_form_skipn _ _ (length (stream t ss))).
  rewrite firstn_all, (header_rewrite_keeps _ _ _ (header_units_len _) Hq). exact Hb.
Qed.

Lemma dest_ops_cut (first : bool) hc cs p (x : bp) R :
  length (concat hc) = 100%nat -> skipn 100 (fst x) = R -> snd x = length (fst x) -> (if first then R = [] else R <> []) ->
  is_prefix p (dest_ops first false hc cs) -> exists k, skipn 100 (fst (bp_ops p x)) = R ++ firstn k (concat cs).
Proof.
  intros Hl Hb Hpos Hf Hp. unfold dest_ops in Hp. cbn [app] in Hp. destruct x as [buf pos]. cbn [fst snd] in *. subst pos. destruct first.
  - (* first write: cut inside the header, nothing follows byte 100; cut past it, the slot is whole *)
    subst R. destruct (header_rewrite_cut _ _ _ (buf, length buf) Hp) as [(i & Hi & ->)|(q & Hq & ->)]; cbn [fst].
    + exists 0%nat. rewrite skipn_mixb, Hf by lia. reflexivity.
    + unfold mixb. rewrite Hl, Hf, app_nil_r, firstn_all2 by lia.
      destruct (writes_cut cs q (concat hc) 100 ltac:(lia) Hq) as (k & _ & ->). exists k. cbn [fst].
      rewrite <- Hl, write_at_end, skipn_app, skipn_all, Nat.sub_diag. reflexivity.
  - destruct (writes_cut cs p buf (length buf) (Nat.le_refl _) Hp) as (k & _ & ->). exists k. cbn [fst].
    rewrite write_at_end, skipn_app, Hb. replace (100 - length buf)%nat with 0%nat; [reflexivity|].
    (* something follows byte 100 ([Hf], [Hb]), so there are 100 bytes *)
    rewrite <- Hb in Hf. apply skipn_nonempty in Hf. lia.
Qed.

Lemma write_crash t hs : dest_on hs t = true -> forall st w ss s,
  WInv hs st w ss -> DevCrash (stream t ss) (get_dev w t) -> nonnull ss -> accepts_type ss s = true ->
  DevCrash (stream t (ss ++ [s])) (get_dev (snd (w_write_shape st w s)) t).
Proof.
  intros Ht st w ss s Inv HC Hss Ha. destruct (WInv_Ready hs st w ss Inv) as [Hwf Hh Hr Hhs Hdev _].
  destruct (Hdev t Ht) as [Hb Hp]. specialize (Hp (inv_int _ _ _ _ Inv)).
  destruct (write_shape_run hs st w ss s Hwf Hh Hr Hhs Hss Ha) as (st' & w' & E & _ & Adv & _). rewrite E. cbn [snd].
  specialize (Adv t). rewrite Ht, (inv_int _ _ _ _ Inv) in Adv. rewrite stream_snoc.
  apply (cuts_step _ _ _ _ _ _ HC Adv); [apply seek0_dest_ops|rewrite Hp; apply Nat.le_refl|apply crash_form_mono|].
  intros q Hq. rewrite explode_dest_ops in Hq.
  destruct (dest_ops_cut _ _ _ q _ _ (header_units_len (hdr0 (type_of s))) Hb Hp (stream_is_nil t ss) Hq) as (k & Ek).
  rewrite concat_units in Ek. apply (crash_form_skipn _ _ (length (stream t ss) + k)). rewrite Ek. symmetry. apply firstn_app_2.
Qed.

Lemma crash_closed t hs : dest_on hs t = true ->
  step_closed (fun st w ss => WInv hs st w ss /\ DevCrash (stream t ss) (get_dev w t)).
Proof.
  intros Ht. exact (closed_with hs (fun w ss => DevCrash (stream t ss) (get_dev w t)) (write_crash t hs Ht) (finalize_crash t hs Ht)).
Qed.

Theorem crash_states t hs cs e : dest_on hs t = true -> Forall call_ok cs ->
  forall p, is_prefix p (explode (trace (get_dev (snd (run_history hs world0 cs e)) t))) ->
  crash_form (stream t (accepted_acc [] cs)) (fst (bp_ops p ([], 0%nat))).
Proof.
  intros Ht. apply (run_history_closed _
    (fun w ss => forall p, is_prefix p (explode (trace (get_dev w t))) -> crash_form (stream t ss) (fst (bp_ops p ([], 0%nat))))
    hs world0 (crash_closed t hs Ht)).
  - intros st w ss [Inv HC] p Hp. exact (Cuts_cut _ _ _ p (finalize_crash t hs Ht st w ss Inv HC) Hp (prefix_nil p)).
  - split; [apply WInv_init|]. destruct t; exact crash_init.
Qed.
