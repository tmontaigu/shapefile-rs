(** L1, part 3: the multi-part body (polylines, polygons, multipatches). *)
From SF Require Import Model.Bytes Model.F64 Model.ShapeType Model.Shapes Model.Res Model.Prog Model.Decode
  Spec.Esri Spec.Denote.
From SF Require Import Proofs.BytesLemmas Proofs.ProgLemmas Proofs.DecodePrims Proofs.DecodePoints.
Open Scope Z_scope.

Lemma reads_parts offs : Forall in_i32 offs -> reads (read_parts (zlen offs)) (i32s offs) offs.
Proof.
  intros H. unfold read_parts. eapply reads_bind_nil; [apply reads_reserve|].
  unfold i32s. apply reads_rep_Z. intros x Hx. rewrite Forall_forall in H. apply reads_i32_le, H, Hx.
Qed.

(** The head of a multi-part record.  Stated with the continuation [k] and the
    bytes nested to the right: the form a goal has after [app_norm]. *)
Lemma reads_multipart_new {B} d a b c e offs npts (k : bbox * Z * Z * list Z -> prog B) rest r :
  f64_ok a -> f64_ok b -> f64_ok c -> f64_ok e ->
  zlen offs < two31 -> 0 <= npts < two31 -> Forall in_i32 offs ->
  reads (k (mkbox (pt_xy d a b) (pt_xy d c e), zlen offs, npts, offs)) rest r ->
  reads (bind (multipart_new d) k)
        (f64s [a; b; c; e] ++ i32_le (zlen offs) ++ i32_le npts ++ i32s offs ++ rest) r.
Proof.
  intros Ha Hb Hc He Hnp Hn Hoffs Hk. pose proof (zlen_nonneg offs) as Hnp0.
  assert (Hd : reads (multipart_new d) (f64s [a; b; c; e] ++ i32_le (zlen offs) ++ i32_le npts ++ i32s offs)
                 (mkbox (pt_xy d a b) (pt_xy d c e), zlen offs, npts, offs)).
  { unfold multipart_new. rstep reads_bbox_xy.
    rstep reads_i32_le; [unfold in_i32, two31 in *; lia|]. rstep reads_i32_le; [unfold in_i32, two31 in *; lia|].
    rewrite (proj2 (Z.ltb_ge _ 0) Hnp0), (proj2 (Z.ltb_ge _ 0) (proj1 Hn)). cbn [orb].
    rlast reads_parts. eapply reads_bind_nil; [apply reads_reserve|]. apply reads_ret. }
  pose proof (reads_bind _ _ _ _ _ _ Hd Hk) as H. rewrite <- !app_assoc in H. exact H.
Qed.

(** The function that [read_parts_xy] (Model/Decode.v) maps over the part
    ranges is anonymous there; it is named here so that lemmas can speak of it,
    and brought in by [change] ([reads_parts_xy_conf]). *)
Definition read_part_xy (d : dim) (se : Z * Z) : prog (list pt) :=
  let '(s, e) := se in
  if (s <? 0) || (e <? s) then Fail EIoInvalidData else read_xy_points d (e - s).

Lemma zlen_firstn_le {A} (l : list A) k : 0 <= k <= zlen l -> zlen (firstn (Z.to_nat k) l) = k.
Proof. unfold zlen; intros H. rewrite firstn_length. lia. Qed.

Lemma zlen_skipn {A} (l : list A) k : 0 <= k <= zlen l -> zlen (skipn (Z.to_nat k) l) = zlen l - k.
Proof. unfold zlen; intros H. rewrite skipn_length. lia. Qed.

Lemma flat_map_firstn_skipn {A B} (f : A -> list B) k (l : list A) :
  flat_map f l = flat_map f (firstn k l) ++ flat_map f (skipn k l).
Proof. rewrite <- flat_map_app, firstn_skipn. reflexivity. Qed.

Lemma reads_parts_xy_gen d : forall r o (l : list (f64 * f64)) n,
  0 <= o -> ascending_from o r -> Forall (fun x => x <= n) r -> o <= n -> zlen l = n - o ->
  Forall (fun p => f64_ok (fst p) /\ f64_ok (snd p)) l ->
  reads (for_each (part_ranges (o :: r) n) (read_part_xy d))
        (flat_map xy_enc l)
        (chop (part_lengths (o :: r) n) (map (xy_pt d) l)).
Proof.
  induction r as [|o' r IH]; intros o l n Ho Hasc Hle Hon Hlen Hok.
  - cbn [part_ranges part_lengths for_each chop]. unfold read_part_xy.
    rewrite (proj2 (Z.ltb_ge o 0) Ho), (proj2 (Z.ltb_ge n o) Hon). cbn [orb].
    rewrite firstn_all2 by (rewrite map_length; unfold zlen in Hlen; lia).
    rlast reads_xy_points. apply reads_ret.
  - cbn [ascending_from] in Hasc. destruct Hasc as [Hoo' Hasc]. inversion Hle as [|? ? Ho'n Hle']; subst.
    change (part_ranges (o :: o' :: r) n) with ((o, o') :: part_ranges (o' :: r) n).
    change (part_lengths (o :: o' :: r) n) with ((o' - o) :: part_lengths (o' :: r) n).
    cbn [for_each chop]. unfold read_part_xy at 1.
    rewrite (proj2 (Z.ltb_ge o 0) Ho), (proj2 (Z.ltb_ge o' o) Hoo'). cbn [orb].
    assert (Hk : 0 <= o' - o <= zlen l) by lia.
    rewrite (flat_map_firstn_skipn xy_enc (Z.to_nat (o' - o)) l), firstn_map, skipn_map.
    rstep reads_xy_points; [apply zlen_firstn_le, Hk|apply Forall_firstn_, Hok|].
    rlast (IH o'); try lia; [rewrite zlen_skipn by exact Hk; lia|apply Forall_skipn_, Hok|]. apply reads_ret.
Qed.

Lemma zipw_firstn {A B C} (f : A -> B -> C) k a b :
  zipw f (firstn k a) (firstn k b) = firstn k (zipw f a b).
Proof.
  revert a b; induction k as [|k IH]; intros [|x a] [|y b]; cbn [firstn zipw]; try reflexivity.
  rewrite IH. reflexivity.
Qed.

Lemma zipw_skipn {A B C} (f : A -> B -> C) k a b :
  zipw f (skipn k a) (skipn k b) = skipn k (zipw f a b).
Proof.
  revert a b; induction k as [|k IH]; intros [|x a] [|y b]; cbn [skipn zipw]; try reflexivity.
  - destruct (skipn k a); reflexivity.
  - apply IH.
Qed.

(** The values of all parts follow each other: reading them part by part
    is attaching them to the flat vertex list, then chopping. *)
Lemma reads_for_each_chop {A} (f : list A -> prog (list A)) (g : A -> f64 -> A) :
  (forall p vs, length p = length vs -> Forall f64_ok vs -> reads (f p) (f64s vs) (zipw g p vs)) ->
  forall lens ps vs,
  Forall (fun k => 0 <= k) lens -> sum_Z lens = zlen ps -> length ps = length vs -> Forall f64_ok vs ->
  reads (for_each (chop lens ps) f) (f64s vs) (chop lens (zipw g ps vs)).
Proof.
  intros Hf. induction lens as [|k lens IH]; intros ps vs Hpos Hsum Hlen Hok; cbn [chop for_each].
  - destruct ps; [|discriminate Hsum]. destruct vs; [apply reads_ret|discriminate Hlen].
  - inversion Hpos as [|? ? Hk Hpos']; subst. cbn [sum_Z] in Hsum. pose proof (sum_Z_nonneg lens Hpos').
    rewrite <- zipw_firstn, <- zipw_skipn.
    replace (f64s vs) with (f64s (firstn (Z.to_nat k) vs) ++ f64s (skipn (Z.to_nat k) vs))
      by (symmetry; apply flat_map_firstn_skipn).
    rstep Hf; [rewrite !firstn_length; lia|apply Forall_firstn_, Hok|].
    rlast IH; [rewrite zlen_skipn; lia|rewrite !skipn_length; lia|apply Forall_skipn_, Hok|]. apply reads_ret.
Qed.

Lemma reads_parts_zs b lens ps lo hi zs :
  f64_ok lo -> f64_ok hi ->
  Forall (fun k => 0 <= k) lens -> sum_Z lens = zlen ps -> length ps = length zs -> Forall f64_ok zs ->
  reads (read_parts_zs b (chop lens ps)) (f64s [lo; hi] ++ f64s zs)
        (mkbox (set_z (bmin b) lo) (set_z (bmax b) hi), chop lens (zipw set_z ps zs)).
Proof.
  intros. unfold read_parts_zs. rstep reads_z_range.
  rlast (reads_for_each_chop read_zs_into set_z reads_zs_into). apply reads_ret.
Qed.

Lemma reads_parts_ms b lens ps lo hi ms :
  f64_ok lo -> f64_ok hi ->
  Forall (fun k => 0 <= k) lens -> sum_Z lens = zlen ps -> length ps = length ms -> Forall f64_ok ms ->
  reads (read_parts_ms b (chop lens ps)) (f64s [lo; hi] ++ f64s ms)
        (mkbox (set_m (bmin b) lo) (set_m (bmax b) hi), chop lens (zipw set_m_norm ps ms)).
Proof.
  intros. unfold read_parts_ms. rstep reads_m_range.
  rlast (reads_for_each_chop read_ms_into set_m_norm reads_ms_into). apply reads_ret.
Qed.

Lemma sum_part_lengths : forall r o n, sum_Z (part_lengths (o :: r) n) = n - o.
Proof.
  induction r as [|o' r IH]; intros o n.
  - cbn [part_lengths sum_Z]. lia.
  - change (part_lengths (o :: o' :: r) n) with ((o' - o) :: part_lengths (o' :: r) n).
    cbn [sum_Z]. rewrite IH. lia.
Qed.

Lemma part_lengths_nonneg : forall r o n, ascending_from o r -> Forall (fun x => x <= n) r -> o <= n ->
  Forall (fun k => 0 <= k) (part_lengths (o :: r) n).
Proof.
  induction r as [|o' r IH]; intros o n Hasc Hle Hon.
  - cbn [part_lengths]. constructor; [lia|constructor].
  - cbn [ascending_from] in Hasc. destruct Hasc as [Hoo' Hasc]. inversion Hle; subst.
    change (part_lengths (o :: o' :: r) n) with ((o' - o) :: part_lengths (o' :: r) n).
    constructor; [lia|]. apply IH; auto.
Qed.

Lemma ascending_bounds : forall r o, ascending_from o r -> Forall (fun x => o <= x) r.
Proof.
  induction r as [|x r IH]; intros o H; constructor; cbn [ascending_from] in H; destruct H as [H1 H2]; [exact H1|].
  apply IH in H2. eapply Forall_impl; [|exact H2]. cbn; intros; lia.
Qed.

(** [Hoffs] is the clause of [body_conformant] on the part offsets. *)
Section Offsets.
  Variables (offs : list Z) (pts : list (f64 * f64)).
  Hypothesis Hoffs : match offs with
                     | [] => pts = []
                     | o :: r => o = 0 /\ ascending_from 0 r /\ Forall (fun x => x <= zlen pts) r
                     end.

  Lemma offs_in_i32 : zlen pts < two31 -> Forall in_i32 offs.
  Proof.
    intros Hn. destruct offs as [|o r]; [constructor|]. destruct Hoffs as (-> & Hasc & Hle).
    constructor; [unfold in_i32, two31; lia|].
    apply ascending_bounds in Hasc. rewrite Forall_forall in *. intros x Hx.
    specialize (Hasc x Hx). specialize (Hle x Hx). unfold in_i32, two31 in *. lia.
  Qed.

  Lemma lens_nonneg : Forall (fun k => 0 <= k) (part_lengths offs (zlen pts)).
  Proof.
    destruct offs as [|o r]; [constructor|]. destruct Hoffs as (-> & Hasc & Hle).
    apply part_lengths_nonneg; auto. apply zlen_nonneg.
  Qed.

  Lemma lens_sum : sum_Z (part_lengths offs (zlen pts)) = zlen pts.
  Proof.
    destruct offs as [|o r]; [rewrite Hoffs; reflexivity|].
    destruct Hoffs as (-> & _ & _). rewrite sum_part_lengths. lia.
  Qed.

  Lemma reads_parts_xy_conf d : Forall (fun p => f64_ok (fst p) /\ f64_ok (snd p)) pts ->
    reads (read_parts_xy d offs (zlen pts)) (flat_map xy_enc pts)
          (chop (part_lengths offs (zlen pts)) (map (xy_pt d) pts)).
  Proof.
    intros Hpts. change (read_parts_xy d offs (zlen pts)) with (for_each (part_ranges offs (zlen pts)) (read_part_xy d)).
    destruct offs as [|o r]; [rewrite Hoffs; apply reads_ret|].
    destruct Hoffs as (-> & Hasc & Hle). pose proof (zlen_nonneg pts).
    apply reads_parts_xy_gen; auto; lia.
  Qed.
End Offsets.

Lemma polyline_flags d n np w : 0 <= n -> 0 <= np -> (has_m_dim d = false -> w = false) ->
  match d with XY => false | _ => record_size_is (polyline_size d n np w) (polyline_size d n np true) end = w /\
  record_size_is (polyline_size d n np w) (polyline_size d n np false) = negb w.
Proof.
  intros Hn Hnp Hw. destruct d.
  - rewrite (Hw eq_refl). split; [reflexivity|]. apply record_size_is_refl. unfold polyline_size; lia.
  - apply size_flags; [intros []|]; unfold polyline_size; lia.
  - apply size_flags; [intros []|]; unfold polyline_size; lia.
Qed.

Lemma reads_polyline_conf t b :
  is_multipoint_type t = false -> st_eqb t TMultipatch = false -> body_conformant t b ->
  reads (read_polyline_body (dim_of_type t) (zlen (ref_body_bytes t b))) (ref_body_bytes t b)
        (denote_box (dim_of_type t) b,
         chop (part_lengths (rb_offsets b) (zlen (rb_pts b)))
              (vertices (dim_of_type t) (rb_pts b) (snd (rb_z b))
                        (match rb_m b with Some (_, ms) => Some ms | None => None end))).
Proof.
  intros Hmp Hpa Hconf. rewrite (conformant_vertices t b Hconf). revert Hconf.
  unfold body_conformant, ref_body_bytes. rewrite Hmp, Hpa, st_has_z_dim, layout_has_m_dim.
  generalize (dim_of_type t); intros d.
  destruct b as [[[[a b0] c] e] offs kinds pts [[zlo zhi] zs] m]; cbn [rb_box rb_offsets rb_pts rb_z rb_m fst snd].
  intros (Hn & Hnp & (Ha & Hb & Hc & He) & Hpts & Hoffs & _ & Hz & Hm).
  pose proof (zlen_nonneg pts) as Hn0. pose proof (zlen_nonneg offs) as Hnp0.
  pose proof (lens_nonneg offs pts Hoffs) as Hl0. pose proof (lens_sum offs pts Hoffs) as Hls.
  apply (reads_size _ (polyline_size d (zlen pts) (zlen offs) (present m))).
  { zlen_norm. rewrite (zlen_z_block d pts), (zlen_m_block d pts) by assumption. unfold polyline_size.
    destruct d, m; try discriminate Hm; cbn [has_z_dim present]; unfold zlen; cbn [length]; lia. }
  unfold read_polyline_body. app_norm.
  eapply reads_multipart_new; auto; [apply (offs_in_i32 offs pts); assumption|]. cbn beta iota zeta.
  destruct (polyline_flags d (zlen pts) (zlen offs) (present m) Hn0 Hnp0) as [-> ->];
    [intros E; rewrite E in Hm; subst m; reflexivity|]. rewrite andb_negb_r.
  rstep reads_parts_xy_conf.
  destruct d; cbn [has_z_dim has_m_dim app bind fst snd] in Hz, Hm |- *.
  - subst m. exact (reads_ret _).
  - destruct m as [[[mlo mhi] ms]|]; [|exact (reads_ret _)].
    rlast reads_parts_ms; try apply Hm; [len..|]. exact (reads_ret _).
  - rstep reads_parts_zs; try apply Hz; [len..|].
    destruct m as [[[mlo mhi] ms]|]; [|exact (reads_ret _)].
    rlast reads_parts_ms; try apply Hm; [len..|]. exact (reads_ret _).
Qed.

Lemma pkind_decode_kind_of k : 0 <= k <= 5 -> pkind_decode k = Some (kind_of k).
Proof.
  intros H. unfold kind_of.
  assert (k = 0 \/ k = 1 \/ k = 2 \/ k = 3 \/ k = 4 \/ k = 5) as Hk by lia.
  destruct Hk as [->|[->|[->|[->|[->| ->]]]]]; reflexivity.
Qed.

Lemma zip_map_kind_of ks (parts : list (list pt)) : zip (map kind_of ks) parts = zip_kinds ks parts.
Proof.
  revert parts; induction ks as [|k ks IH]; intros [|p parts]; cbn [map zip zip_kinds]; try reflexivity.
  rewrite IH. reflexivity.
Qed.

Lemma reads_kinds kinds : Forall (fun k => 0 <= k <= 5) kinds ->
  reads (rep_Z (zlen kinds) read_patch_type) (i32s kinds) (map kind_of kinds).
Proof.
  intros H. apply reads_rep_Z_map. intros k Hk. rewrite Forall_forall in H. specialize (H k Hk).
  unfold read_patch_type. eapply reads_bind_last; [apply reads_i32_le; unfold in_i32, two31; lia|].
  rewrite pkind_decode_kind_of by exact H. apply reads_ret.
Qed.

Lemma multipatch_flags n np w : 0 <= n -> 0 <= np ->
  record_size_is (multipatch_size n np w) (multipatch_size n np true) = w /\
  record_size_is (multipatch_size n np w) (multipatch_size n np false) = negb w.
Proof. intros Hn Hnp. apply size_flags; [intros []|]; unfold multipatch_size; lia. Qed.

Lemma reads_multipatch_conf b : body_conformant TMultipatch b ->
  reads (read_multipatch (zlen (ref_body_bytes TMultipatch b))) (ref_body_bytes TMultipatch b)
        (denote_multi TMultipatch b).
Proof.
  intros Hconf. unfold denote_multi. rewrite (conformant_vertices TMultipatch b Hconf), <- zip_map_kind_of.
  revert Hconf.
  unfold body_conformant, ref_body_bytes. rewrite st_has_z_dim, layout_has_m_dim.
  change (dim_of_type TMultipatch) with XYZM.
  destruct b as [[[[a b0] c] e] offs kinds pts [[zlo zhi] zs] m].
  cbn [rb_box rb_offsets rb_kinds rb_pts rb_z rb_m fst snd is_multipoint_type st_eqb st_code Z.eqb Pos.eqb].
  intros (Hn & Hnp & (Ha & Hb & Hc & He) & Hpts & Hoffs & (Hkl & Hkinds) & Hz & Hm).
  pose proof (zlen_nonneg pts) as Hn0. pose proof (zlen_nonneg offs) as Hnp0.
  pose proof (lens_nonneg offs pts Hoffs) as Hl0. pose proof (lens_sum offs pts Hoffs) as Hls.
  assert (Hkl' : zlen kinds = zlen offs) by (unfold zlen; rewrite Hkl; reflexivity).
  apply (reads_size _ (multipatch_size (zlen pts) (zlen offs) (present m))).
  { zlen_norm. rewrite (zlen_z_block XYZM pts), (zlen_m_block XYZM pts), Hkl' by assumption. unfold multipatch_size.
    destruct m; cbn [has_z_dim present]; unfold zlen; cbn [length]; lia. }
  unfold read_multipatch. app_norm.
  eapply reads_multipart_new; auto; [apply (offs_in_i32 offs pts); assumption|]. cbn beta iota zeta.
  destruct (multipatch_flags (zlen pts) (zlen offs) (present m) Hn0 Hnp0) as [-> ->]. rewrite andb_negb_r.
  eapply reads_bind_nil; [apply reads_reserve|]. eapply reads_bind_nil; [apply reads_reserve|].
  rewrite <- Hkl'. rstep reads_kinds. rstep reads_parts_xy_conf.
  cbn [has_z_dim has_m_dim] in Hz, Hm |- *. rstep reads_parts_zs; try apply Hz; [len..|].
  destruct m as [[[mlo mhi] ms]|]; [|exact (reads_ret _)].
  rlast reads_parts_ms; try apply Hm; [len..|]. exact (reads_ret _).
Qed.
