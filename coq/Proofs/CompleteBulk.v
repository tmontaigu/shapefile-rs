(** The number of pairs the complete writer's bulk helper
    `write_shapes_and_records(self, pairs)` offers to `write_shape_and_record`:
    all of them, or up to and including the first whose call fails: the
    counterpart of [bulk_offered] (BulkTail.v) in C10_complete_bulk_is_calls. *)
From SF Require Import Model.Bytes Model.Shapes Model.Res Model.Writer Model.Complete.
Open Scope Z_scope.

Fixpoint cbulk_offered (cs : list (shape * rowk * Z)) (st : cwstate) (w : world) : nat :=
  match cs with
  | [] => O
  | (s, k, id) :: r =>
      let '(res, st', w') := cw_write st w s k id in
      match res with Ok _ => S (cbulk_offered r st' w') | _ => 1%nat end
  end.
