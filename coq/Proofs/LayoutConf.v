(** The record a well-formed shape is laid out as is conformant (the whole
    file: [layout_conformant], RoundTrip.v), and what the records of the
    layout denote (Spec/Denote.v) is [on_read] of the shapes: the shapes
    themselves with measures of multi-vertex shapes normalised and ring roles
    recomputed from the vertex order.  [shape_ok], the well-formedness every
    theorem about written files assumes, and [on_read] are defined here. *)
From SF Require Import Model.Bytes Model.F64 Model.ShapeType Model.Shapes Model.Encode Model.Construct
  Spec.Esri Spec.Denote Spec.Layout.
From SF Require Import Proofs.BytesLemmas Proofs.ShapeTypeProofs Proofs.SizeProofs Proofs.EncodeRef.
Open Scope Z_scope.

Ltac splits := repeat (match goal with |- _ /\ _ => split end).

(** Well-formed shape values: every coordinate is a 64-bit pattern.  The Null
    shape is left out: the writer takes a header of type Null to mean that
    nothing has been written yet (src/writer.rs:103-107), and the histories the
    writer theorems cover write none ([call_ok], WriterInv.v). *)
Definition pt_ok (p : pt) : Prop := f64_ok (px p) /\ f64_ok (py p) /\ f64_ok (pz p) /\ f64_ok (pm p).
Definition box_ok (b : bbox) : Prop := pt_ok (bmin b) /\ pt_ok (bmax b).
Definition parts_ok (parts : list (list pt)) : Prop := Forall (Forall pt_ok) parts.

Definition shape_ok (s : shape) : Prop :=
  match s with
  | SNull => False
  | SPoint _ p => pt_ok p
  | SMultipoint _ b ps => box_ok b /\ Forall pt_ok ps
  | SPolyline _ b parts => box_ok b /\ parts_ok parts
  | SPolygon _ b rings => box_ok b /\ parts_ok (map snd rings)
  | SMultipatch b patches => box_ok b /\ parts_ok (map snd patches)
  end.

(** Everything but Null and Point is stored as [RMulti] of its type, its box,
    its parts and its part kinds; what holds of such a record is proved of
    [body_of] once and reaches the four variants through this view. *)
Definition multi (s : shape) : bool := match s with SNull | SPoint _ _ => false | _ => true end.

Definition multi_box (s : shape) : bbox :=
  match s with SMultipoint _ b _ | SPolyline _ b _ | SPolygon _ b _ | SMultipatch b _ => b | _ => box0 end.

Definition kind_codes (s : shape) : list Z :=
  match s with SMultipatch _ patches => map (fun p => pkind_code (fst p)) patches | _ => [] end.

Lemma shape_cases s : s = SNull \/ (exists d p, s = SPoint d p) \/ multi s = true.
Proof. destruct s; eauto. Qed.

Lemma rec_of_multi s : multi s = true ->
  rec_of_shape s = RMulti (type_of s) (body_of (type_of s) (multi_box s) (shape_parts s) (kind_codes s)).
Proof. destruct s; (discriminate || reflexivity). Qed.

Lemma dim_of_type_of s : dim_of_type (type_of s) = shape_dim s.
Proof. destruct s; try destruct d; reflexivity. Qed.

Lemma multi_type s : multi s = true -> is_multi_type (type_of s) = true.
Proof. destruct s; try destruct d; (discriminate || reflexivity). Qed.

Lemma kind_codes_conformant s :
  if st_eqb (type_of s) TMultipatch
  then length (kind_codes s) = length (shape_parts s) /\ Forall (fun k => 0 <= k <= 5) (kind_codes s)
  else kind_codes s = [].
Proof.
  destruct s as [|d p|d b ps|d b parts|d b rings|b patches]; try destruct d; try reflexivity.
  cbn [type_of kind_codes shape_parts]. rewrite !map_length. split; [reflexivity|].
  apply Forall_map, Forall_forall. intros [k ps] _. destruct k; cbn; lia.
Qed.

Lemma shape_ok_multi s : multi s = true -> shape_ok s -> box_ok (multi_box s) /\ parts_ok (shape_parts s).
Proof.
  destruct s; try discriminate; intros _ [Hb Hp]; split; try assumption.
  constructor; [exact Hp|constructor].
Qed.

Lemma size_in_bytes_counts s : multi s = true ->
  16 * total_points (shape_parts s) + 4 * zlen (shape_parts s) <= size_in_bytes s.
Proof.
  destruct s as [|d p|d b ps|d b parts|d b rings|b patches]; try discriminate; intros _;
    cbn [size_in_bytes shape_parts]; rewrite ?zlen_map.
  - pose proof (zlen_nonneg ps). rewrite total_points_cons. change (total_points []) with 0. change (zlen [ps]) with 1.
    destruct d; cbn [coords_per_point range_bytes]; lia.
  - pose proof (total_points_nonneg parts). destruct d; cbn [coords_per_point range_bytes]; lia.
  - pose proof (total_points_nonneg (map snd rings)). destruct d; cbn [coords_per_point range_bytes]; lia.
  - pose proof (total_points_nonneg (map snd patches)). pose proof (zlen_nonneg patches). lia.
Qed.

Lemma running_ascending : forall lens lo acc, lo <= acc -> Forall (fun l => 0 <= l) lens ->
  ascending_from lo (running_offsets acc lens).
Proof.
  induction lens as [|l r IH]; intros lo acc Hlo H; cbn [running_offsets ascending_from]; [exact I|].
  inversion H as [|? ? Hl Hr]; subst. split; [exact Hlo|]. apply IH; [lia|exact Hr].
Qed.

Lemma running_bounded : forall lens acc, Forall (fun l => 0 <= l) lens ->
  Forall (fun x => x <= acc + sum_Z lens) (running_offsets acc lens).
Proof.
  induction lens as [|l r IH]; intros acc H; cbn [running_offsets sum_Z]; [constructor|].
  inversion H as [|? ? Hl Hr]; subst. pose proof (sum_Z_nonneg r Hr).
  constructor; [lia|]. eapply Forall_impl; [|exact (IH (acc + l) Hr)]. cbv beta. intros; lia.
Qed.

Lemma lens_nonneg {A} (parts : list (list A)) : Forall (fun l => 0 <= l) (map (fun p => zlen p) parts).
Proof. induction parts; constructor; [apply zlen_nonneg|assumption]. Qed.

(** The hypothesis follows from [record_words s < two31]: a record holds at
    least 16 bytes per vertex and 4 per part ([size_in_bytes_counts]). *)
Lemma body_counts t b parts kinds :
  16 * zlen (concat parts) + 4 * zlen parts < two32 ->
  zlen (rb_pts (body_of t b parts kinds)) < two31 /\ zlen (rb_offsets (body_of t b parts kinds)) < two31.
Proof.
  intros H. unfold body_of. cbn [rb_pts rb_offsets]. rewrite zlen_map.
  pose proof (zlen_nonneg (concat parts)). pose proof (zlen_nonneg parts). split; [unfold two31, two32 in *; lia|].
  destruct (is_multipoint_type t); [change (zlen (@nil Z)) with 0; unfold two31; lia|].
  rewrite zlen_running, zlen_map. unfold two31, two32 in *. lia.
Qed.

Lemma body_of_conformant t b parts kinds :
  (if st_eqb t TMultipatch then length kinds = length parts /\ Forall (fun k => 0 <= k <= 5) kinds else kinds = []) ->
  box_ok b -> parts_ok parts ->
  16 * zlen (concat parts) + 4 * zlen parts < two32 ->
  body_conformant t (body_of t b parts kinds).
Proof.
  intros Hk Hb Hp Hn. destruct (body_counts t b parts kinds Hn) as [Hn1 Hn2].
  unfold body_conformant. split; [exact Hn1|]. split; [exact Hn2|].
  destruct Hb as [(Hx1 & Hy1 & Hz1 & Hm1) (Hx2 & Hy2 & Hz2 & Hm2)].
  pose proof (proj2 (Forall_concat _ _) Hp) as Hall.
  unfold body_of. cbn [rb_box rb_offsets rb_kinds rb_pts rb_z rb_m].
  split. { cbv beta iota zeta; splits; assumption. }
  split. { apply Forall_map. eapply Forall_impl; [|exact Hall]. intros p (Hx & Hy & _). cbn. split; assumption. }
  split.
  { destruct (is_multipoint_type t); [reflexivity|]. rewrite zlen_map.
    pose proof (running_ascending _ 0 0 (Z.le_refl 0) (lens_nonneg parts)) as Ha.
    pose proof (running_bounded _ 0 (lens_nonneg parts)) as Hbd. rewrite sum_lens_concat in Hbd.
    destruct parts as [|p0 r]; cbn [map running_offsets ascending_from] in *; [reflexivity|].
    split; [reflexivity|]. split; [apply Ha|exact (Forall_inv_tail Hbd)]. }
  split.
  { destruct (st_eqb t TMultipatch) eqn:E; [|exact Hk].
    apply st_eqb_eq in E. subst t. destruct Hk as [Hk1 Hk2]. split; [|exact Hk2]. rewrite Hk1.
    cbn [is_multipoint_type]. apply Nat2Z.inj. change (zlen parts = zlen (running_offsets 0 (map (fun p => zlen p) parts))).
    rewrite zlen_running, zlen_map. reflexivity. }
  split.
  { destruct (st_has_z t); [|reflexivity]. cbn [fst snd]. rewrite !map_length. splits; try assumption; [reflexivity|].
    apply Forall_map. eapply Forall_impl; [|exact Hall]. intros p (_ & _ & Hz & _). exact Hz. }
  destruct (layout_has_m t); [|reflexivity]. cbn [fst snd]. rewrite !map_length. splits; try assumption; [reflexivity|].
  apply Forall_map. eapply Forall_impl; [|exact Hall]. intros p (_ & _ & _ & Hm). exact Hm.
Qed.

Lemma size_bounds_counts parts k : 0 <= k ->
  16 * total_points parts + 4 * zlen parts + k < two32 -> 16 * zlen (concat parts) + 4 * zlen parts < two32.
Proof. rewrite total_points_concat. lia. Qed.

Theorem rec_of_shape_conformant s : shape_ok s -> record_words s < two31 -> rec_conformant (rec_of_shape s).
Proof.
  intros Hok Hw. destruct (shape_cases s) as [-> | [(d & p & ->) | Hs]].
  - contradiction.
  - destruct Hok as (Hx & Hy & Hz & Hm). destruct d; cbn [rec_of_shape rec_conformant]; splits; assumption.
  - rewrite (rec_of_multi s Hs). split; [apply multi_type, Hs|].
    destruct (shape_ok_multi s Hs Hok) as [Hb Hp]. pose proof (size_in_bytes_counts s Hs) as Hn.
    apply body_of_conformant; try assumption.
    + apply kind_codes_conformant.
    + apply (size_bounds_counts _ (size_in_bytes s - 16 * total_points (shape_parts s) - 4 * zlen (shape_parts s))); [lia|].
      pose proof (record_words_double s). unfold two31, two32 in *. lia.
Qed.

Definition clean_pt (d : dim) (p : pt) : pt :=
  mkpt (px p) (py p) (if has_z_dim d then pz p else 0) (if has_m_dim d then pm p else 0).
(** A vertex of a multi-vertex shape as it is read back: X, Y, Z bit-identical,
    the measure normalised (NaN and anything at or below the no-data threshold
    becomes NO_DATA). *)
Definition norm_pt (d : dim) (p : pt) : pt :=
  mkpt (px p) (py p) (if has_z_dim d then pz p else 0) (if has_m_dim d then read_m_norm (pm p) else 0).
Definition clean_box (d : dim) (b : bbox) : bbox := mkbox (clean_pt d (bmin b)) (clean_pt d (bmax b)).

Definition on_read (s : shape) : shape :=
  match s with
  | SNull => SNull
  | SPoint d p => SPoint d (clean_pt d p)
  | SMultipoint d b ps => SMultipoint d (clean_box d b) (map (norm_pt d) ps)
  | SPolyline d b parts => SPolyline d (clean_box d b) (map (map (norm_pt d)) parts)
  | SPolygon d b rings =>
      SPolygon d (clean_box d b) (map (fun r => ring_from_points (map (norm_pt d) (snd r))) rings)
  | SMultipatch b patches =>
      SMultipatch (clean_box XYZM b) (map (fun p => (fst p, map (norm_pt XYZM) (snd p))) patches)
  end.

Lemma vertices_norm d ps :
  vertices d (map xy_of ps) (if has_z_dim d then map pz ps else []) (if has_m_dim d then Some (map pm ps) else None)
  = map (norm_pt d) ps.
Proof.
  induction ps as [|p r IH]; [reflexivity|].
  destruct d; cbn [has_z_dim has_m_dim map vertices xy_of hd tl] in *; rewrite IH; reflexivity.
Qed.

Lemma part_lengths_running : forall lens acc, part_lengths (running_offsets acc lens) (acc + sum_Z lens) = lens.
Proof.
  induction lens as [|l r IH]; intros acc; [reflexivity|].
  cbn [running_offsets sum_Z]. destruct r as [|l2 r2].
  - cbn [running_offsets part_lengths sum_Z]. f_equal. lia.
  - specialize (IH (acc + l)). cbn [running_offsets] in *. cbn [part_lengths] in *.
    f_equal; [lia|]. replace (acc + (l + sum_Z (l2 :: r2))) with (acc + l + sum_Z (l2 :: r2)) by lia. exact IH.
Qed.

Lemma chop_concat {A} (parts : list (list A)) : chop (map (fun p => zlen p) parts) (concat parts) = parts.
Proof.
  induction parts as [|p r IH]; [reflexivity|].
  cbn [map chop concat]. unfold zlen in *. rewrite !Nat2Z.id, firstn_app, Nat.sub_diag, firstn_all. cbn [firstn].
  rewrite app_nil_r. f_equal. rewrite skipn_app, Nat.sub_diag, skipn_all. cbn [skipn app]. exact IH.
Qed.

Lemma chop_parts {A B} (f : A -> B) (parts : list (list A)) :
  chop (part_lengths (running_offsets 0 (map (fun p => zlen p) parts)) (zlen (concat parts)))
       (map f (concat parts)) = map (map f) parts.
Proof.
  rewrite <- sum_lens_concat, <- (Z.add_0_l (sum_Z _)), part_lengths_running.
  rewrite concat_map. replace (map (fun p => zlen p) parts) with (map (fun p => zlen p) (map (map f) parts)).
  - apply chop_concat.
  - rewrite map_map. apply map_ext. intros p. unfold zlen. rewrite map_length. reflexivity.
Qed.

Lemma kind_of_code k : kind_of (pkind_code k) = k.
Proof. destruct k; reflexivity. Qed.

Lemma zip_kinds_map (f : list pt -> list pt) (patches : list (pkind * list pt)) :
  zip_kinds (map (fun p => pkind_code (fst p)) patches) (map f (map snd patches))
  = map (fun p => (fst p, f (snd p))) patches.
Proof.
  induction patches as [|[k ps] r IH]; [reflexivity|]. cbn [map zip_kinds fst snd]. rewrite kind_of_code, IH. reflexivity.
Qed.

Lemma denote_body_of t d b parts kinds :
  st_has_z t = has_z_dim d -> layout_has_m t = has_m_dim d ->
  vertices d (rb_pts (body_of t b parts kinds)) (snd (rb_z (body_of t b parts kinds)))
           (match rb_m (body_of t b parts kinds) with Some (_, ms) => Some ms | None => None end)
    = map (norm_pt d) (concat parts)
  /\ denote_box d (body_of t b parts kinds) = clean_box d b.
Proof.
  intros Hz Hm. unfold denote_box, clean_box, clean_pt, body_of. cbn [rb_pts rb_z rb_m rb_box]. rewrite Hz, Hm.
  split; [|destruct d; reflexivity]. destruct d; apply vertices_norm.
Qed.

Lemma chop_body_of {B} t b parts kinds (f : pt -> B) : is_multipoint_type t = false ->
  chop (part_lengths (rb_offsets (body_of t b parts kinds)) (zlen (rb_pts (body_of t b parts kinds)))) (map f (concat parts))
  = map (map f) parts.
Proof. intros Hp. unfold body_of. cbn [rb_offsets rb_pts]. rewrite Hp, zlen_map. apply chop_parts. Qed.

Theorem denote_rec_of_shape s : denote (rec_of_shape s) = on_read s.
Proof.
  destruct (shape_cases s) as [-> | [(d & p & ->) | Hs]]; [reflexivity|destruct d; reflexivity|].
  rewrite (rec_of_multi s Hs). cbn [denote]. unfold denote_multi. cbv zeta.
  destruct (type_of_flags s) as [Hz Hm]. rewrite dim_of_type_of.
  destruct (denote_body_of (type_of s) _ (multi_box s) (shape_parts s) (kind_codes s) Hz Hm) as [Hv Hb]. rewrite Hv, Hb.
  destruct s as [|d p|d b ps|d b parts|d b rings|b patches]; try discriminate Hs;
    cbn [type_of shape_dim multi_box shape_parts kind_codes on_read].
  - destruct d; cbn [concat]; rewrite app_nil_r; reflexivity.
  - rewrite chop_body_of by (destruct d; reflexivity). destruct d; reflexivity.
  - rewrite chop_body_of by (destruct d; reflexivity). rewrite !map_map. destruct d; reflexivity.
  - rewrite chop_body_of by reflexivity. unfold body_of. cbn [rb_kinds]. rewrite zip_kinds_map. reflexivity.
Qed.

(** What a reader that returns [denote] of every stored record returns. *)
Lemma denote_numbered {A} (f : shape -> A) i ss :
  map (fun nr => f (denote (snd nr))) (numbered i (map rec_of_shape ss)) = map (fun s => f (on_read s)) ss.
Proof.
  rewrite <- (map_map snd (fun r => f (denote r))), map_snd_numbered, map_map.
  apply map_ext. intros s. rewrite denote_rec_of_shape. reflexivity.
Qed.
