(** The reader on a conformant file, without index: opening returns the
    header as stored, iteration yields what every record denotes, in order,
    and ends at the declared length (bytes after it are ignored).  This is the
    core of C03 (and of C01 once the writer is shown to emit the layout).
    One record ([read_record_cut]) and one step of the iteration ([seq_step])
    are stated for a source that holds any cut of the bytes, so that the
    readings of truncated files (Truncation.v) and of crash states
    (CrashRead.v) rest on the same two facts. *)
From SF Require Import Model.Bytes Model.F64 Model.ShapeType Model.Shapes Model.Res Model.Encode Model.Prog
  Model.Decode Model.Reader Spec.Esri Spec.Denote.
From SF Require Import Proofs.BytesLemmas Proofs.ProgLemmas Proofs.DecodePrims Proofs.RecordL1
  Proofs.DecodeClosed Proofs.ReaderSteps.
Open Scope Z_scope.

(** What [read_header] returns on [ref_header t box len]: the eight doubles of
    the box are stored xmin ymin xmax ymax zmin zmax mmin mmax; 1000 is the version. *)
Definition header_of (t : shape_type) (box : list f64) (len : Z) : header :=
  mkhdr len t 1000
    (mkbox (mkpt (nth 0 box 0) (nth 1 box 0) (nth 4 box 0) (nth 6 box 0))
           (mkpt (nth 2 box 0) (nth 3 box 0) (nth 5 box 0) (nth 7 box 0))).

Lemma reads_header t box len :
  length box = 8%nat -> Forall f64_ok box -> in_i32 len ->
  reads read_header (ref_header t box len) (header_of t box len).
Proof.
  intros Hlen Hok Hl.
  destruct box as [|b0 [|b1 [|b2 [|b3 [|b4 [|b5 [|b6 [|b7 [|]]]]]]]]]; try discriminate Hlen.
  repeat match goal with H : Forall _ (_ :: _) |- _ => inversion H; clear H; subst end.
  unfold read_header, ref_header.
  eapply reads_bind; [apply reads_i32_be; unfold in_i32, two31; lia|]. cbn beta.
  change (negb (9994 =? 9994)) with false. cbv iota.
  eapply reads_bind; [apply reads_take; reflexivity|]. cbn beta.
  eapply reads_bind; [apply reads_i32_be, Hl|]. cbn beta.
  eapply reads_bind; [apply reads_i32_le; unfold in_i32, two31; lia|]. cbn beta.
  eapply reads_bind; [apply reads_shape_type|]. cbn beta.
  unfold f64s; cbn [flat_map].
  do 8 (eapply reads_bind; [apply reads_f64; assumption|]; cbn beta).
  apply reads_ret.
Qed.

Lemma zlen_ref_header t box len : length box = 8%nat -> zlen (ref_header t box len) = 100.
Proof.
  intros H. unfold ref_header. rewrite !zlen_app, !zlen_i32_be, !zlen_i32_le, zlen_f64s.
  unfold zlen at 2. rewrite H. reflexivity.
Qed.

Definition record_ok (req : option shape_type) (nr : Z * ref_rec) : Prop :=
  in_i32 (fst nr) /\ rec_conformant (snd nr) /\ zlen (ref_content (snd nr)) < two31 /\ accepts req (snd nr).

Lemma L1_record_ok req num r : record_ok req (num, r) ->
  reads (read_one_shape req) (ref_record num r) ((num, zlen (ref_content r) / 2), denote r).
Proof. intros (Hnum & Hc & Hsz & Ha). exact (L1_record req num r Hnum Hc Hsz Ha). Qed.

Lemma zlen_ref_record num r : zlen (ref_record num r) = 8 + zlen (ref_content r).
Proof. unfold ref_record. rewrite !zlen_app, !zlen_i32_be. lia. Qed.

Lemma ref_records_cons nr rs :
  ref_records_bytes (nr :: rs) = ref_record (fst nr) (snd nr) ++ ref_records_bytes rs.
Proof. reflexivity. Qed.

Lemma ref_records_even rs : 2 * (zlen (ref_records_bytes rs) / 2) = zlen (ref_records_bytes rs).
Proof.
  induction rs as [|nr rs IH]; [reflexivity|]. rewrite ref_records_cons, zlen_app, zlen_ref_record.
  pose proof (ref_content_even (snd nr)). lia.
Qed.

Lemma ref_record_pos num r : 0 < zlen (ref_record num r).
Proof. rewrite zlen_ref_record. pose proof (zlen_nonneg (ref_content r)). lia. Qed.

Lemma ref_record_inside data p num r more :
  skipn (Z.to_nat p) data = ref_record num r ++ more -> p + zlen (ref_record num r) <= zlen data.
Proof.
  intros Hsk. pose proof (ref_record_pos num r) as Hpos.
  destruct (skipn_bound _ _ _ _ Hsk) as [Hb|Hb]; [unfold zlen; lia|]. rewrite Hb in Hpos. discriminate Hpos.
Qed.

Lemma read_at_end req s : clean s -> s_rest s = [] -> exists s', run (read_one_shape req) s = (Err EIoEof, s').
Proof.
  intros [Hf Hp] Hr. unfold read_one_shape, read_record_header, read_i32_be. rewrite !run_bind.
  unfold take at 1. cbn [run]. rewrite do_take_clean, Hr by exact Hf. eexists. reflexivity.
Qed.

Lemma read_record_cut req data K num r more s :
  record_ok req (num, r) -> clean s -> s_data s = firstn (Z.to_nat K) data ->
  skipn (Z.to_nat (s_pos s)) data = ref_record num r ++ more ->
  exists s', clean s' /\ s_data s' = s_data s /\
    if s_pos s + zlen (ref_record num r) <=? K
    then run (read_one_shape req) s = (Ok ((num, zlen (ref_content r) / 2), denote r), s') /\
         s_pos s' = s_pos s + zlen (ref_record num r)
    else run (read_one_shape req) s = (Err EIoEof, s').
Proof.
  intros Hok Hcl Hd Hsk. pose proof (ref_record_pos num r) as Hpos.
  destruct (Z.le_gt_cases (s_pos s) K) as [Hin|Hout].
  - (* the source is the truncation of the source over all of [data], on which the record is read *)
    set (sf := full_of data s). pose proof (truncate_full data K s Hd) as Etr. fold sf in Etr.
    assert (Hrf : s_rest sf = ref_record num r ++ more) by (rewrite s_rest_skipn; exact Hsk).
    destruct (L1_record_ok req num r Hok sf more Hcl Hrf) as (sf' & Hrun & Hc' & Hd' & Hp').
    destruct (simple_truncation _ (simple_read_one_shape req) sf _ sf' Hcl Hrun K Hin) as [T1 T2]. rewrite Etr in T1, T2.
    change (s_pos sf) with (s_pos s) in Hp'.
    destruct (Z.leb_spec (s_pos s + zlen (ref_record num r)) K) as [Hle|Hgt].
    + exists (truncate K sf'). split; [exact Hc'|]. split; [cbn [truncate s_data]; rewrite Hd', Hd; reflexivity|].
      split; [apply T1; lia|exact Hp'].
    + destruct (T2 ltac:(lia)) as (s2 & R2). exists s2.
      destruct (simple_clean _ _ _ _ (simple_read_one_shape req) Hcl R2) as [Hc2 Hd2]. auto.
  - assert (Hre : s_rest s = []).
    { apply rest_beyond. rewrite Hd. unfold zlen. rewrite firstn_length. destruct Hcl. lia. }
    destruct (read_at_end req s Hcl Hre) as (s2 & R2). exists s2.
    destruct (Z.leb_spec (s_pos s + zlen (ref_record num r)) K); [lia|].
    destruct (simple_clean _ _ _ _ (simple_read_one_shape req) Hcl R2) as [Hc2 Hd2]. auto.
Qed.

(** The reader stands at the start of the records [rs] in [data], of which the
    source holds the first [K] bytes (all of them when [K = zlen data]).
    [sq_small] keeps the additions the reader makes to its position, in `usize`
    ([usize_add]), from overflowing. *)
Record seq_at (data : bytes) (K : Z) (st : rstate) (s : src) (rs : list (Z * ref_rec)) : Prop := mk_seq_at {
  sq_index : r_index st = None;
  sq_clean : clean s;
  sq_cur : r_cur st = s_pos s;
  sq_data : s_data s = firstn (Z.to_nat K) data;
  sq_recs : exists more, skipn (Z.to_nat (s_pos s)) data = ref_records_bytes rs ++ more;
  sq_small : s_pos s + zlen (ref_records_bytes rs) < two64
}.

Lemma seq_at_plain st s rs rest :
  r_index st = None -> clean s -> r_cur st = s_pos s -> s_rest s = ref_records_bytes rs ++ rest ->
  s_pos s + zlen (ref_records_bytes rs) < two64 -> seq_at (s_data s) (zlen (s_data s)) st s rs.
Proof.
  intros Hidx Hcl Hcur Hr Hsm. constructor; try assumption; [symmetry; apply firstn_zlen|].
  exists rest. rewrite <- s_rest_skipn. exact Hr.
Qed.

Lemma seq_at_truncate data K st s rs : seq_at data (zlen data) st s rs -> seq_at data K st (truncate K s) rs.
Proof.
  intros [H1 H2 H3 H4 H5 H6]. constructor; try assumption. cbn [truncate s_data]. rewrite H4, firstn_zlen. reflexivity.
Qed.

Lemma seq_at_inside data K st s nr rs :
  seq_at data K st s (nr :: rs) -> s_pos s + zlen (ref_record (fst nr) (snd nr)) <= zlen data.
Proof.
  intros [_ _ _ _ (more & Hsk) _]. rewrite ref_records_cons, <- app_assoc in Hsk.
  exact (ref_record_inside _ _ _ _ _ Hsk).
Qed.

(* Used as: [pose proof (seq_step ..) as H; cbv zeta in H; destruct (Z.leb_spec ..)], the test being the one of [read_record_cut]. *)
Lemma seq_step req data K st s num r rs :
  seq_at data K st s ((num, r) :: rs) -> record_ok req (num, r) -> r_cur st < flen_bytes st ->
  let st1 := set_cur st (r_cur st + zlen (ref_record num r)) in
  if s_pos s + zlen (ref_record num r) <=? K
  then exists s1, seq_at data K st1 s1 rs /\ s_pos s1 = s_pos s + zlen (ref_record num r) /\
         forall f items ended st2 s2,
           run (it_pull f req st1) s1 = (Ok (items, ended, st2), s2) ->
           run (it_pull (S f) req st) s = (Ok (Ok (denote r) :: items, ended, st2), s2)
  else exists s2, forall f,
         run (it_pull (S f) req st) s
         = (Ok ([Err EIoEof], match f with O => false | S _ => true end, set_cur st (flen_bytes st)), s2).
Proof.
  intros [Hidx Hcl Hcur Hd (more & Hsk) Hsm] Hok Hlt st1.
  rewrite ref_records_cons in Hsk, Hsm. cbn [fst snd] in Hsk, Hsm. rewrite <- app_assoc in Hsk. rewrite zlen_app in Hsm.
  destruct (read_record_cut req data K num r _ s Hok Hcl Hd Hsk) as (s1 & Hc1 & Hd1 & Hrd).
  pose proof (ref_content_even r) as Hev.
  pose proof (zlen_ref_record num r) as HL. pose proof (zlen_nonneg (ref_records_bytes rs)) as Hnn.
  destruct (Z.leb_spec (s_pos s + zlen (ref_record num r)) K) as [Hin|Hcut].
  - destruct Hrd as [Hrun Hp1]. exists s1. split; [|split; [exact Hp1|]].
    + constructor; try assumption; [unfold st1; cbn [set_cur r_cur]; lia|congruence| |lia].
      exists more. rewrite Hp1. unfold zlen. destruct Hcl as [_ Hp].
      rewrite Z2Nat.inj_add, Nat2Z.id by lia. apply skipn_app_after, Hsk.
    + intros f items ended st2 s2 Hrest.
      apply (it_pull_ok f req st s _ _ s1 items ended st2 s2 Hidx Hlt Hrun); cbn [snd]; [lia|].
      replace (r_cur st + 8 + zlen (ref_content r) / 2 * 2) with (r_cur st + zlen (ref_record num r)) by lia. exact Hrest.
  - exists s1. intros f. apply it_pull_err; assumption.
Qed.

Lemma it_pull_noindex req data : forall rs st s,
  seq_at data (zlen data) st s rs -> flen_bytes st = r_cur st + zlen (ref_records_bytes rs) ->
  Forall (record_ok req) rs ->
  exists st' s', run (it_pull (S (length rs)) req st) s = (Ok (map (fun nr => Ok (denote (snd nr))) rs, true, st'), s').
Proof.
  induction rs as [|[num r] rs IH]; intros st s Hat Hlen Hok.
  - exists st, s. apply it_pull_end; [apply Hat|]. rewrite Hlen. cbn. lia.
  - inversion Hok as [|? ? Hok1 Hok2]; subst. rewrite ref_records_cons, zlen_app in Hlen. cbn [fst snd] in Hlen.
    pose proof (ref_record_pos num r). pose proof (zlen_nonneg (ref_records_bytes rs)).
    pose proof (seq_at_inside _ _ _ _ _ _ Hat) as Hin. cbn [fst snd] in Hin.
    pose proof (seq_step req _ _ st s num r rs Hat Hok1 ltac:(lia)) as Hstep. cbv zeta in Hstep.
    destruct (Z.leb_spec (s_pos s + zlen (ref_record num r)) (zlen data)); [|lia].
    destruct Hstep as (s1 & Hat1 & _ & Hpull).
    destruct (IH _ s1 Hat1) as (st2 & s2 & Hrun2); [rewrite flen_bytes_set_cur; cbn [set_cur r_cur]; lia|exact Hok2|].
    exists st2, s2. exact (Hpull _ _ _ _ _ Hrun2).
Qed.

Definition declared_words (g : ref_file) : Z := (100 + zlen (ref_records_bytes (rf_records g))) / 2.

Lemma zlen_ref_shp g : length (rf_box g) = 8%nat -> zlen (ref_shp g) = 100 + zlen (ref_records_bytes (rf_records g)).
Proof. intros H. unfold ref_shp. rewrite zlen_app, zlen_ref_header by exact H. reflexivity. Qed.

Lemma simple_r_new : simple r_new.
Proof. apply simple_bind; [apply simple_read_header|intros; apply simple_ret]. Qed.

Lemma open_conformant g trailing : file_conformant g ->
  let data := ref_shp g ++ trailing in
  let st0 := mkr (header_of (rf_type g) (rf_box g) (declared_words g)) None 100 0 in
  exists s1, run r_new (src_of data) = (Ok st0, s1) /\ seq_at data (zlen data) st0 s1 (rf_records g) /\
    flen_bytes st0 = 100 + zlen (ref_records_bytes (rf_records g)).
Proof.
  intros (Hbl & Hbox & Hrecs & Hlen) data st0. set (rs := rf_records g) in *. set (len := declared_words g) in *.
  pose proof (ref_records_even rs) as Hev. pose proof (zlen_nonneg (ref_records_bytes rs)) as Hnn.
  assert (Hlen2 : 2 * len = 100 + zlen (ref_records_bytes rs)) by (unfold len, declared_words; fold rs; lia).
  assert (Hl : in_i32 len) by (unfold in_i32, len, declared_words; fold rs; unfold two31 in *; lia).
  assert (Hr0 : s_rest (src_of data) = ref_header (rf_type g) (rf_box g) len ++ (ref_records_bytes rs ++ trailing)).
  { rewrite s_rest_src_of. unfold data, ref_shp. rewrite <- app_assoc. reflexivity. }
  destruct (reads_header (rf_type g) (rf_box g) len Hbl Hbox Hl _ _ (clean_src_of data) Hr0) as (s1 & Hrun1 & Hc1 & Hd1 & Hp1).
  rewrite zlen_ref_header in Hp1 by exact Hbl. change (s_pos (src_of data)) with 0 in Hp1.
  exists s1. split; [unfold r_new; rewrite run_bind, Hrun1; reflexivity|]. split.
  - assert (Hr1 : s_rest s1 = ref_records_bytes rs ++ trailing).
    { eapply (rest_after (src_of data)); [apply Z.le_refl|exact Hd1| |exact Hr0]. rewrite zlen_ref_header by exact Hbl. exact Hp1. }
    change (s_data (src_of data)) with data in Hd1. rewrite <- Hd1.
    apply (seq_at_plain st0 s1 rs trailing); try assumption; try reflexivity; [exact (eq_sym Hp1)|].
    unfold two64; unfold two31, in_i32 in *; lia.
  - unfold flen_bytes. cbn [r_hdr st0 header_of h_len]. unfold in_i32 in Hl. lia.
Qed.

Theorem read_all_noindex req g trailing :
  file_conformant g -> Forall (fun nr => accepts req (snd nr) /\ zlen (ref_content (snd nr)) < two31) (rf_records g) ->
  exists st s',
    run (st <-- r_new ;; x <-- it_pull (S (length (rf_records g))) req st ;; Ret (r_hdr st, x))
        (src_of (ref_shp g ++ trailing))
    = (Ok (header_of (rf_type g) (rf_box g) (declared_words g),
           (map (fun nr => Ok (denote (snd nr))) (rf_records g), true, st)), s').
Proof.
  intros Hg Hacc. destruct (open_conformant g trailing Hg) as (s1 & Hrun1 & Hat & Hfl).
  assert (Hok : Forall (record_ok req) (rf_records g)).
  { destruct Hg as (_ & _ & Hrecs & _). rewrite Forall_forall in *. intros nr Hin. destruct (Hrecs nr Hin) as (H1 & H2 & _).
    destruct (Hacc nr Hin) as (H3 & H4). unfold record_ok. auto. }
  destruct (it_pull_noindex req _ _ _ s1 Hat Hfl Hok) as (st2 & s2 & Hrun2).
  exists st2, s2. rewrite run_bind, Hrun1, run_bind, Hrun2. reflexivity.
Qed.
