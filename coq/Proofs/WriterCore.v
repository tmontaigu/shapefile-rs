(** Destinations: the effect of operation lists on buffer, position and log,
    with and without faults, and the buffer lemmas (append, write at offset 0). *)
From SF Require Import Model.Bytes Model.Res Model.Writer.
From SF Require Import Proofs.BytesLemmas.
Open Scope Z_scope.

Lemma write_at_inside buf p bs : (p <= length buf)%nat ->
  write_at buf p bs = firstn p buf ++ bs ++ skipn (p + length bs) buf.
Proof.
  intros H. unfold write_at. destruct (Nat.ltb_spec (length buf) p); [lia|reflexivity].
Qed.

Lemma write_at_end buf bs : write_at buf (length buf) bs = buf ++ bs.
Proof.
  rewrite write_at_inside by lia. rewrite firstn_all, skipn_all2 by lia. rewrite app_nil_r. reflexivity.
Qed.

Lemma write_at_0 buf bs : write_at buf 0 bs = bs ++ skipn (length bs) buf.
Proof. apply write_at_inside. lia. Qed.

Lemma write_at_app buf p a b : (p <= length buf)%nat ->
  write_at (write_at buf p a) (p + length a) b = write_at buf p (a ++ b).
Proof.
  intros H. rewrite (write_at_inside buf p a H).
  assert (Hl : length (firstn p buf) = p) by (rewrite firstn_length; lia).
  rewrite write_at_inside by (rewrite !app_length, Hl; lia).
  rewrite (write_at_inside buf p (a ++ b) H).
  rewrite firstn_app, Hl. replace (p + length a - p)%nat with (length a) by lia.
  rewrite firstn_app, firstn_all.
  rewrite (firstn_all2 (firstn p buf)) by lia.
  replace (length a - length a)%nat with 0%nat by lia. cbn [firstn]. rewrite app_nil_r.
  rewrite <- !app_assoc. f_equal. f_equal.
  rewrite skipn_app, Hl. rewrite (skipn_all2 (firstn p buf)) by lia. cbn [app].
  replace (p + length a + length b - p)%nat with (length a + length b)%nat by lia.
  rewrite skipn_app. rewrite (skipn_all2 a) by lia. cbn [app].
  replace (length a + length b - length a)%nat with (length b) by lia.
  rewrite skipn_skipn_. rewrite app_length. f_equal. f_equal. lia.
Qed.

Lemma write_at_length buf p bs : (p <= length buf)%nat ->
  length (write_at buf p bs) = Nat.max (length buf) (p + length bs).
Proof.
  intros H. rewrite write_at_inside by exact H. rewrite !app_length, firstn_length, skipn_length. lia.
Qed.

Definition bp := (bytes * nat)%type.

Definition bp_op (op : wop) (x : bp) : bp :=
  let '(buf, pos) := x in
  match op with
  | WriteAll bs => (write_at buf pos bs, (pos + length bs)%nat)
  | WSeekStart p => (buf, Z.to_nat p)
  | WSeekEnd => (buf, length buf)
  | WFlush => (buf, pos)
  end.

Definition bp_ops (ops : list wop) (x : bp) : bp := fold_left (fun x op => bp_op op x) ops x.

Definition bp_of (d : wdev) : bp := (d_buf d, Z.to_nat (d_pos d)).

Definition last_is_flush (ops : list wop) (before : bool) : bool :=
  match rev ops with [] => before | WFlush :: _ => true | _ => false end.

Fixpoint ops_of (t : dest) (ops : list (dest * wop)) : list wop :=
  match ops with
  | [] => []
  | (t', op) :: r => if dest_eqb t t' then op :: ops_of t r else ops_of t r
  end.

Definition no_fault (w : world) : Prop := d_fault (w_shp w) = None /\ d_fault (w_shx w) = None.

Definition dev_wf (d : wdev) : Prop := d_fault d = None /\ 0 <= d_pos d.

Definition op_wf (op : wop) : Prop := match op with WSeekStart p => 0 <= p | _ => True end.

Definition world_wf (w : world) : Prop := dev_wf (w_shp w) /\ dev_wf (w_shx w).

Lemma bp_ops_app a b x : bp_ops (a ++ b) x = bp_ops b (bp_ops a x).
Proof. unfold bp_ops. apply fold_left_app. Qed.

Lemma last_is_flush_cons op ops b : last_is_flush (op :: ops) b = last_is_flush ops (last_is_flush [op] b).
Proof. unfold last_is_flush. cbn [rev app]. destruct (rev ops) as [|o r]; reflexivity. Qed.

Definition advances (d d' : wdev) (ops : list wop) : Prop :=
  bp_of d' = bp_ops ops (bp_of d) /\ rev (d_log d') = rev (d_log d) ++ ops /\ d_fault d' = d_fault d.

Lemma advances_bp d d' ops : advances d d' ops -> bp_of d' = bp_ops ops (bp_of d).
Proof. intros A. apply A. Qed.

Lemma advances_nil d : advances d d [].
Proof. split; [reflexivity|]. split; [symmetry; apply app_nil_r|reflexivity]. Qed.

Lemma advances_app d d1 d2 a b : advances d d1 a -> advances d1 d2 b -> advances d d2 (a ++ b).
Proof.
  intros (B1 & L1 & F1) (B2 & L2 & F2). split; [rewrite bp_ops_app, B2, B1; reflexivity|].
  split; [rewrite L2, L1, app_assoc; reflexivity|rewrite F2; exact F1].
Qed.

Lemma apply_op_spec op d : 0 <= d_pos d -> op_wf op ->
  exists r d', apply_op op d = (r, d') /\ 0 <= d_pos d' /\
    ((r = Ok tt /\ advances d d' [op] /\ d_flushed d' = last_is_flush [op] (d_flushed d)) \/
     (r = Err EIoInjected /\ advances d d' [] /\ d_fault d <> None)).
Proof.
  intros Hp Hop. unfold apply_op. destruct (dev_faulty d) eqn:Ef.
  - do 2 eexists. split; [reflexivity|]. split; [exact Hp|]. right. split; [reflexivity|]. split.
    + split; [reflexivity|]. split; [symmetry; apply app_nil_r|reflexivity].
    + intros E. unfold dev_faulty in Ef. rewrite E in Ef. discriminate.
  - destruct op as [bs|p| |]; do 2 eexists; (split; [reflexivity|]); unfold advances, bp_of;
      cbn [d_pos d_buf d_log d_fault d_flushed bp_ops fold_left bp_op rev app];
      (split; [|left; split; [reflexivity|split; [split; [|split; reflexivity]|reflexivity]]]).
    + pose proof (zlen_nonneg bs). lia.
    + unfold zlen. rewrite Z2Nat.inj_add, Nat2Z.id by lia. reflexivity.
    + exact Hop.
    + reflexivity.
    + apply zlen_nonneg.
    + unfold zlen. rewrite Nat2Z.id. reflexivity.
    + exact Hp.
    + reflexivity.
Qed.

Lemma get_set_dev w t0 d t : get_dev (set_dev w t0 d) t = if dest_eqb t t0 then d else get_dev w t.
Proof. destruct t, t0; reflexivity. Qed.

Lemma dest_eqb_eq t t0 : dest_eqb t t0 = true -> t = t0.
Proof. destruct t, t0; [reflexivity|discriminate|discriminate|reflexivity]. Qed.

(* The first hypothesis is [world_pos_ok] (WriterFaults.v) read per destination;
   [world_wf] asks in addition that no destination has a fault plan. *)
Lemma run_ops_spec : forall ops w, (forall t, 0 <= d_pos (get_dev w t)) -> Forall (fun o => op_wf (snd o)) ops ->
  exists pre post r w', ops = pre ++ post /\ run_ops ops w = (r, w') /\
    (forall t, 0 <= d_pos (get_dev w' t) /\ advances (get_dev w t) (get_dev w' t) (ops_of t pre)) /\
    ((r = Ok tt /\ post = [] /\
      forall t, d_flushed (get_dev w' t) = last_is_flush (ops_of t pre) (d_flushed (get_dev w t))) \/
     (r = Err EIoInjected /\ post <> [] /\ exists t, d_fault (get_dev w t) <> None)).
Proof.
  induction ops as [|[t0 op] ops IH]; intros w Hw Hops.
  - exists [], [], (Ok tt), w. split; [reflexivity|]. split; [reflexivity|].
    split; [intros t; split; [apply Hw|apply advances_nil]|]. left. auto.
  - inversion Hops as [|? ? Hop Hops']; subst. cbn [snd] in Hop. cbn [run_ops].
    destruct (apply_op_spec op (get_dev w t0) (Hw t0) Hop) as (r & d' & E & Hp' & [(-> & A & F)|(-> & A & Hf)]); rewrite E.
    + destruct (IH (set_dev w t0 d')) as (pre & post & r & w' & -> & R & Hd & Hcase); [|exact Hops'|].
      { intros t. rewrite get_set_dev. destruct (dest_eqb t t0); [exact Hp'|apply Hw]. }
      exists ((t0, op) :: pre), post, r, w'. split; [reflexivity|]. split; [exact R|].
      assert (Hstep : forall t, advances (get_dev w t) (get_dev (set_dev w t0 d') t) (if dest_eqb t t0 then [op] else [])).
      { intros t. rewrite get_set_dev. destruct (dest_eqb t t0) eqn:Et; [|apply advances_nil].
        apply dest_eqb_eq in Et. subst t. exact A. }
      split; [|destruct Hcase as [(-> & -> & Hfl)|(-> & Hne & t & Ht)]; [left|right]].
      * intros t. destruct (Hd t) as [Hp A']. split; [exact Hp|]. pose proof (advances_app _ _ _ _ _ (Hstep t) A') as G.
        cbn [ops_of]. destruct (dest_eqb t t0); exact G.
      * split; [reflexivity|]. split; [reflexivity|]. intros t. rewrite Hfl, get_set_dev. cbn [ops_of].
        destruct (dest_eqb t t0) eqn:Et; [|reflexivity]. apply dest_eqb_eq in Et. subst t.
        rewrite F. symmetry. apply last_is_flush_cons.
      * split; [reflexivity|]. split; [exact Hne|]. exists t. destruct (Hstep t) as (_ & _ & F1). rewrite <- F1. exact Ht.
    + exists [], ((t0, op) :: ops), (Err EIoInjected), (set_dev w t0 d'). split; [reflexivity|]. split; [reflexivity|]. split.
      * intros t. rewrite get_set_dev. destruct (dest_eqb t t0) eqn:Et; [|split; [apply Hw|apply advances_nil]].
        apply dest_eqb_eq in Et. subst t. split; [exact Hp'|exact A].
      * right. split; [reflexivity|]. split; [discriminate|]. exists t0. exact Hf.
Qed.

Lemma both_dev (P : wdev -> Prop) w : P (w_shp w) /\ P (w_shx w) <-> forall t, P (get_dev w t).
Proof. split; [intros [H1 H2] t; destruct t; assumption|intros H; exact (conj (H Shp) (H Shx))]. Qed.

Lemma run_ops_ok ops w : world_wf w -> Forall (fun o => op_wf (snd o)) ops ->
  exists w', run_ops ops w = (Ok tt, w') /\ world_wf w' /\
    forall t, advances (get_dev w t) (get_dev w' t) (ops_of t ops) /\
              d_flushed (get_dev w' t) = last_is_flush (ops_of t ops) (d_flushed (get_dev w t)).
Proof.
  intros Hw Hops. unfold world_wf in Hw. rewrite both_dev in Hw.
  destruct (run_ops_spec ops w (fun t => proj2 (Hw t)) Hops) as (pre & post & r & w' & -> & R & Hd & [(-> & -> & Hfl)|(_ & _ & t & Ht)]).
  - rewrite app_nil_r in *. exists w'. split; [exact R|]. split.
    + apply (both_dev dev_wf). intros t. destruct (Hd t) as (Hp & _ & _ & F). split; [rewrite F; apply Hw|exact Hp].
    + intros t. split; [apply Hd|apply Hfl].
  - destruct (Ht (proj1 (Hw t))).
Qed.

Lemma ops_of_on t t' cs : ops_of t (on t' cs) = if dest_eqb t t' then map WriteAll cs else [].
Proof.
  unfold on. induction cs as [|c cs IH]; cbn [map ops_of]; [destruct (dest_eqb t t'); reflexivity|].
  rewrite IH. destruct (dest_eqb t t'); reflexivity.
Qed.

Lemma ops_of_app t a b : ops_of t (a ++ b) = ops_of t a ++ ops_of t b.
Proof.
  induction a as [|[t' op] a IH]; cbn [app ops_of]; [reflexivity|]. destruct (dest_eqb t t'); cbn [app]; rewrite IH; reflexivity.
Qed.

Lemma bp_write_chunks cs buf pos : (pos <= length buf)%nat ->
  bp_ops (map WriteAll cs) (buf, pos) = (write_at buf pos (concat cs), (pos + length (concat cs))%nat).
Proof.
  revert buf pos; induction cs as [|c cs IH]; intros buf pos H; cbn [map concat].
  - unfold bp_ops; cbn [fold_left]. rewrite write_at_inside by exact H. cbn [app length].
    rewrite Nat.add_0_r, firstn_skipn. reflexivity.
  - unfold bp_ops in *; cbn [fold_left bp_op]. rewrite IH.
    + rewrite write_at_app by exact H. rewrite app_length. f_equal. lia.
    + rewrite write_at_length by exact H. lia.
Qed.

Lemma Forall_on_wf t cs : Forall (fun o => op_wf (snd o)) (on t cs).
Proof. unfold on. induction cs; cbn [map]; constructor; cbn; auto. Qed.
