(** The length field of a header torn between two values: cases on the byte of
    the tear, then linear arithmetic.  Depends on Model/Bytes.v alone. *)
From SF Require Import Model.Bytes.
From Coq Require Import Lia ZArith.
Open Scope Z_scope.
(* For the [/ 256] and [mod 256] of [le_bytes]; Proofs/BytesLemmas.v, which sets
   it for its importers, is not imported here. *)
Ltac Zify.zify_post_hook ::= Z.div_mod_to_equations.

(** L4: a big-endian 32-bit field torn between an old value a and a new value
    b >= a (the first j bytes already hold b's, the rest still a's) reads as a
    value >= a: a length field torn during finalize never hides records
    committed by an earlier finalize.  And, both values being below 2^31, it
    stays below 2^31 (its most significant byte is that of one of the two). *)
Theorem torn_be32 (a b : Z) (j : nat) :
  0 <= a <= b -> b < two32 -> (j <= 4)%nat ->
  let v := of_be (firstn j (be_bytes 4 b) ++ skipn j (be_bytes 4 a)) in a <= v /\ (b < two31 -> v < two31).
Proof.
  intros Hab Hb Hj. unfold be_bytes, of_be, two31, two32 in *. cbn [le_bytes rev app].
  destruct j as [|[|[|[|[|j]]]]]; [| | | | |exfalso; lia]; cbn [firstn skipn app rev of_le]; lia.
Qed.
