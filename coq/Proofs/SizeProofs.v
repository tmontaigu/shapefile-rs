(** C18: announced size = emitted size, for every shape value. *)
From SF Require Import Model.Bytes Model.ShapeType Model.Shapes Model.Encode.
From SF Require Import Proofs.BytesLemmas.
Open Scope Z_scope.

Definition clen (c : chunks) : Z := zlen (concat c).

Lemma clen_nil : clen [] = 0. Proof. reflexivity. Qed.
Lemma clen_cons b c : clen (b :: c) = zlen b + clen c.
Proof. unfold clen; cbn [concat]; apply zlen_app. Qed.
Lemma clen_app a b : clen (a ++ b) = clen a + clen b.
Proof. unfold clen; rewrite concat_app; apply zlen_app. Qed.

Lemma clen_map {A} (f : A -> bytes) k l : (forall x, zlen (f x) = k) -> clen (map f l) = k * zlen l.
Proof. unfold clen. rewrite <- flat_map_concat_map. apply zlen_flat_map. Qed.

Lemma clen_xy ps : clen (xy_chunks ps) = 16 * zlen ps.
Proof.
  induction ps as [|p ps IH]; [reflexivity|].
  unfold xy_chunks in *; cbn [flat_map]. rewrite clen_app, IH, !clen_cons, clen_nil, !zlen_f64_enc, zlen_cons. lia.
Qed.
Lemma clen_ms ps : clen (ms_chunks ps) = 8 * zlen ps.
Proof. apply clen_map. intros p. apply zlen_f64_enc. Qed.
Lemma clen_zs ps : clen (zs_chunks ps) = 8 * zlen ps.
Proof. apply clen_map. intros p. apply zlen_f64_enc. Qed.

Lemma sum_lens_concat {A} (parts : list (list A)) : sum_Z (map (fun p => zlen p) parts) = zlen (concat parts).
Proof. induction parts as [|p r IH]; [reflexivity|]. cbn [map sum_Z concat]. rewrite zlen_app, IH. reflexivity. Qed.

Lemma total_points_concat parts : total_points parts = zlen (concat parts).
Proof. apply sum_lens_concat. Qed.

Lemma total_points_cons p parts : total_points (p :: parts) = zlen p + total_points parts.
Proof. reflexivity. Qed.

Lemma total_points_nonneg parts : 0 <= total_points parts.
Proof. rewrite total_points_concat. apply zlen_nonneg. Qed.

Lemma flat_map_concat {A B} (h : A -> list B) ls : flat_map (flat_map h) ls = flat_map h (concat ls).
Proof. induction ls as [|l ls IH]; cbn [flat_map concat]; [reflexivity|]. rewrite flat_map_app, IH. reflexivity. Qed.

Lemma flat_map_map_concat {A B} (h : A -> B) ls : flat_map (map h) ls = map h (concat ls).
Proof. rewrite flat_map_concat_map, concat_map. reflexivity. Qed.

Lemma multipart_tail_concat d b parts :
  multipart_tail d b parts
  = xy_chunks (concat parts)
    ++ (if has_z_dim d then z_range_chunks b ++ zs_chunks (concat parts) else [])
    ++ (if has_m_dim d then m_range_chunks b ++ ms_chunks (concat parts) else []).
Proof.
  unfold multipart_tail, xy_chunks, zs_chunks, ms_chunks. rewrite flat_map_concat, !flat_map_map_concat. reflexivity.
Qed.

Lemma multipoint_chunks_tail d b ps :
  multipoint_chunks d b ps = bbox_xy_chunks b ++ [i32_le (zlen ps)] ++ multipart_tail d b [ps].
Proof. rewrite multipart_tail_concat. cbn [concat]. rewrite app_nil_r. reflexivity. Qed.

Lemma zlen_part_offsets acc lens : zlen (part_offsets acc lens) = zlen lens.
Proof. revert acc; induction lens as [|l r IH]; intros acc; cbn [part_offsets]; [reflexivity|]. rewrite !zlen_cons, IH; reflexivity. Qed.

Lemma clen_bbox_xy b : clen (bbox_xy_chunks b) = 32.
Proof. unfold bbox_xy_chunks; rewrite !clen_cons, clen_nil, !zlen_f64_enc; reflexivity. Qed.
Lemma clen_m_range b : clen (m_range_chunks b) = 16.
Proof. unfold m_range_chunks; rewrite !clen_cons, clen_nil, !zlen_f64_enc; reflexivity. Qed.
Lemma clen_z_range b : clen (z_range_chunks b) = 16.
Proof. unfold z_range_chunks; rewrite !clen_cons, clen_nil, !zlen_f64_enc; reflexivity. Qed.

Lemma clen_multipart_head b parts : clen (multipart_head b parts) = 40 + 4 * zlen parts.
Proof.
  unfold multipart_head. rewrite !clen_app, clen_bbox_xy, !clen_cons, clen_nil, !zlen_i32_le,
    (clen_map i32_le 4 _ zlen_i32_le), zlen_part_offsets. unfold part_lens; rewrite zlen_map. lia.
Qed.

Lemma clen_multipart_tail d b parts :
  clen (multipart_tail d b parts) = coords_per_point d * 8 * total_points parts + range_bytes d.
Proof.
  rewrite multipart_tail_concat, total_points_concat, !clen_app, clen_xy.
  destruct d; cbn [has_z_dim has_m_dim coords_per_point range_bytes];
    rewrite ?clen_app, ?clen_nil, ?clen_z_range, ?clen_m_range, ?clen_zs, ?clen_ms; lia.
Qed.

Lemma clen_point d p : clen (point_chunks d p) = coords_per_point d * 8.
Proof. destruct d; unfold point_chunks; rewrite !clen_cons, clen_nil, !zlen_f64_enc; reflexivity. Qed.

Lemma clen_multipoint d b ps :
  clen (multipoint_chunks d b ps) = 4 * 8 + 4 + coords_per_point d * 8 * zlen ps + range_bytes d.
Proof.
  rewrite multipoint_chunks_tail, !clen_app, clen_bbox_xy, clen_cons, clen_nil, zlen_i32_le, clen_multipart_tail.
  rewrite total_points_cons. change (total_points []) with 0. lia.
Qed.

Theorem size_in_bytes_correct (s : shape) : zlen (content_bytes s) = size_in_bytes s.
Proof.
  unfold content_bytes. change (zlen (concat (content_chunks s))) with (clen (content_chunks s)).
  destruct s as [|d p|d b ps|d b parts|d b rings|b patches]; cbn [content_chunks size_in_bytes].
  - reflexivity.
  - apply clen_point.
  - apply clen_multipoint.
  - unfold multipart_chunks; rewrite clen_app, clen_multipart_head, clen_multipart_tail. lia.
  - unfold multipart_chunks; rewrite clen_app, clen_multipart_head, clen_multipart_tail, zlen_map. lia.
  - rewrite !clen_app, clen_multipart_head, clen_multipart_tail, zlen_map.
    rewrite (clen_map _ 4) by (intros p; apply zlen_i32_le).
    cbn [coords_per_point range_bytes]. lia.
Qed.

(** Every size is even, so the division in [record_words] is exact. *)
Lemma record_words_double s : 2 * record_words s = size_in_bytes s + 4.
Proof.
  unfold record_words.
  destruct s as [|d p|d b ps|d b parts|d b rings|b patches]; cbn [size_in_bytes]; try destruct d;
    cbn [coords_per_point range_bytes]; Z.div_mod_to_equations; lia.
Qed.

Theorem record_words_exact t s :
  zlen (concat ([i32_le (st_code t)] ++ content_chunks s)) = 2 * record_words s.
Proof.
  cbn [app concat]. rewrite zlen_app, zlen_i32_le, record_words_double.
  change (concat (content_chunks s)) with (content_bytes s). rewrite size_in_bytes_correct. lia.
Qed.

Theorem record_bytes_length t num s :
  zlen (record_bytes t num s) = 8 + 2 * record_words s.
Proof.
  unfold record_bytes, record_chunks, record_header_chunks.
  rewrite concat_app, zlen_app, record_words_exact. cbn [concat]. rewrite !zlen_app, !zlen_i32_be, zlen_nil. lia.
Qed.

(* The same fact about [length] is [header_bytes_len] (WriterInv.v). *)
Lemma header_bytes_length h : zlen (header_bytes h) = 100.
Proof.
  unfold header_bytes, header_chunks. change (zlen (concat ?c)) with (clen c).
  rewrite !clen_cons, clen_nil, !zlen_i32_be, !zlen_i32_le, !zlen_f64_enc. reflexivity.
Qed.
