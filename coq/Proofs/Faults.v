(** C13, failing sources.  A source that fails its k-th operation: a simple
    program (every record reader, the header and index readers) that reaches
    that operation returns the injected error; one that finishes before it is
    unaffected. *)
From SF Require Import Model.Bytes Model.Res Model.Prog Model.Decode.
From SF Require Import Proofs.ProgLemmas Proofs.DecodeClosed.
Open Scope Z_scope.

Definition with_fault (s : src) (f : fault) : src :=
  mksrc (s_data s) (s_pos s) (s_ops s) (Some f) (s_reserved s).

Theorem simple_fault {A} (p : prog A) : simple p ->
  forall s r s' f, s_fault s = None -> (s_ops s <= f_at f)%nat -> run p s = (r, s') ->
    ((s_ops s' <= f_at f)%nat -> run p (with_fault s f) = (r, with_fault s' f)) /\
    ((f_at f < s_ops s')%nat -> fst (run p (with_fault s f)) = Err EIoInjected).
Proof.
  induction 1 as [a|e| |n k He Hk Hs IH|n k Hs IH]; intros s r s' f Hf Hle Hrun; cbn [run] in *.
  - inversion Hrun; subst. split; [reflexivity|lia].
  - inversion Hrun; subst. split; [reflexivity|lia].
  - inversion Hrun; subst. split; [reflexivity|lia].
  - rewrite do_take_clean in Hrun by exact Hf.
    (* before the planned operation is reached, persistent and one-shot plans coincide *)
    assert (Hnow : faulty_now (with_fault s f) = (f_at f =? s_ops s)%nat).
    { unfold faulty_now, with_fault; cbn [s_fault s_ops]. destruct (f_persistent f); [|reflexivity].
      destruct (Nat.leb_spec (f_at f) (s_ops s)), (Nat.eqb_spec (f_at f) (s_ops s)); try reflexivity; lia. }
    unfold do_take. rewrite Hnow. destruct (Nat.eqb_spec (f_at f) (s_ops s)) as [Eq|Ne].
    + (* this very operation fails *)
      rewrite He. cbn [run fst].
      assert (Hops : (s_ops s < s_ops s')%nat).
      { destruct (n <=? length (s_rest s))%nat;
          [eapply Nat.lt_le_trans; [|apply (run_frame _ _ _ _ Hrun)]; cbn; lia|].
        rewrite He in Hrun. cbn [run] in Hrun. inversion Hrun; subst. cbn. lia. }
      split; [lia|reflexivity].
    + change (s_rest (with_fault s f)) with (s_rest s).
      destruct (n <=? length (s_rest s))%nat.
      * specialize (IH (firstn n (s_rest s)) (bump (set_pos s (s_pos s + Z.of_nat n))) r s' f Hf).
        apply IH; [cbn [bump set_pos s_ops]; lia|exact Hrun].
      * rewrite He in *. cbn [run] in *. inversion Hrun; subst. cbn [bump set_pos s_ops]. split; [reflexivity|lia].
  - apply (IH (do_reserve n s) r s' f); assumption.
Qed.

Corollary record_fault req s r s' f : s_fault s = None -> (s_ops s <= f_at f)%nat ->
  run (read_one_shape req) s = (r, s') -> (f_at f < s_ops s')%nat ->
  fst (run (read_one_shape req) (with_fault s f)) = Err EIoInjected.
Proof.
  intros Hf Hle Hrun Hlt. exact (proj2 (simple_fault _ (simple_read_one_shape req) s r s' f Hf Hle Hrun) Hlt).
Qed.

Corollary index_fault s r s' f : s_fault s = None -> (s_ops s <= f_at f)%nat ->
  run read_index_file s = (r, s') -> (f_at f < s_ops s')%nat -> fst (run read_index_file (with_fault s f)) = Err EIoInjected.
Proof. intros Hf Hle Hrun Hlt. exact (proj2 (simple_fault _ simple_read_index_file s r s' f Hf Hle Hrun) Hlt). Qed.
