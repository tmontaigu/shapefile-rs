(** C17 at the level of the reader state machine: every function of the reader
    reserves only what the decoders reserve ([rb]), so every call of every
    history keeps the ledger bounded. *)
From SF Require Import Model.Bytes Model.Reader.
From SF Require Import Proofs.Reserve Proofs.DecodeClosed.
Open Scope Z_scope.

Lemma rb_usize_add a b : rb (usize_add a b).
Proof. unfold usize_add. destruct (a + b <? two64); constructor. Qed.

(* The reader's functions are built from the decoders, the seeks, [catch], [usize_add], [bind] and case
   distinctions, none of which reserves anything: one step takes the outermost of these away. *)
Create HintDb rb.
#[local] Hint Resolve rb_usize_add rb_seek_start_ rb_seek_end_ rb_read_one_shape rb_read_header : rb.
Ltac rb_step :=
  first [ solve [auto with rb] | apply rb_bind; [|intros] | apply rb_catch
        | match goal with
          | |- rb (match ?x with _ => _ end) => destruct x
          | |- rb (if ?c then _ else _) => destruct c
          end
        | constructor ].

Lemma rb_it_read req st : rb (it_read req st).
Proof. unfold it_read. repeat rb_step. Qed.
#[local] Hint Resolve rb_it_read : rb.

Lemma rb_it_next req st : rb (it_next req st).
Proof. unfold it_next, nth_entry, offset_in_bytes. repeat rb_step. Qed.
#[local] Hint Resolve rb_it_next : rb.

Lemma rb_it_pull req : forall fuel st, rb (it_pull fuel req st).
Proof. induction fuel as [|f IH]; intros st; cbn [it_pull]; repeat rb_step. Qed.

Lemma rb_r_seek st k : rb (r_seek st k).
Proof. unfold r_seek, nth_entry, offset_in_bytes. repeat rb_step. Qed.
#[local] Hint Resolve rb_it_pull rb_r_seek : rb.

Lemma rb_r_read_nth req st i : rb (r_read_nth req st i).
Proof. unfold r_read_nth. repeat rb_step. Qed.
#[local] Hint Resolve rb_r_read_nth : rb.

Lemma rb_r_calls req : forall cs st, rb (r_calls req st cs).
Proof. induction cs as [|c cs IH]; intros st; cbn [r_calls]; [constructor|]. unfold r_call. repeat rb_step. Qed.
