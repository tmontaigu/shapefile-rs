(** A header slot torn between two headers of the same file.

    While finalize rewrites the 100-byte header in place, a crash leaves the
    first i bytes of the new header followed by the remaining bytes of the old
    one ([mixb]).  When both are headers of the same shape type, the mixture is
    itself a well-formed header (C11_torn_header): its length field is the
    big-endian field torn between the two lengths (L4: not below the older
    one, below 2^31), its box fields are some 64-bit patterns. *)
From SF Require Import Model.Bytes Spec.Esri.
From SF Require Import Proofs.BytesLemmas Proofs.TornLength.
Open Scope Z_scope.

Definition mixb (i : nat) (new old : bytes) : bytes := firstn i new ++ skipn i old.

Lemma mixb_0 new old : mixb 0 new old = old.
Proof. reflexivity. Qed.

Lemma mixb_all i new old : (length new <= i)%nat -> length old = length new -> mixb i new old = new.
Proof. intros H E. unfold mixb. rewrite firstn_all2 by exact H. rewrite skipn_all2 by lia. apply app_nil_r. Qed.

Lemma mixb_same i l : mixb i l l = l.
Proof. apply firstn_skipn. Qed.

Lemma mixb_length i new old : length old = length new -> length (mixb i new old) = length new.
Proof. intros E. unfold mixb. rewrite app_length, firstn_length, skipn_length. lia. Qed.

Lemma skipn_mixb n i new old : (i <= length new)%nat -> (i <= n)%nat -> skipn n (mixb i new old) = skipn n old.
Proof.
  intros Hi Hn. unfold mixb. rewrite skipn_app, firstn_length, (skipn_all2 (firstn i new)) by (rewrite firstn_length; lia).
  rewrite skipn_skipn_. cbn [app]. f_equal. lia.
Qed.

Lemma mixb_old_app i new old R : (i <= length old)%nat -> mixb i new (old ++ R) = mixb i new old ++ R.
Proof. intros Hi. unfold mixb. rewrite skipn_app, <- app_assoc. replace (i - length old)%nat with 0%nat by lia. reflexivity. Qed.

Lemma mixb_app i a2 r2 a1 r1 : length a1 = length a2 ->
  mixb i (a2 ++ r2) (a1 ++ r1) = mixb i a2 a1 ++ mixb (i - length a2) r2 r1.
Proof.
  intros E. unfold mixb. rewrite firstn_app, skipn_app, E.
  destruct (Nat.le_ge_cases i (length a2)) as [Hi|Hi].
  - replace (i - length a2)%nat with 0%nat by lia. cbn [firstn skipn]. rewrite app_nil_r, <- app_assoc. reflexivity.
  - rewrite (firstn_all2 a2) by exact Hi. rewrite (skipn_all2 a1) by lia. cbn [app]. rewrite app_nil_r, <- app_assoc. reflexivity.
Qed.

Lemma mixb_all_bytes i new old : all_bytes new -> all_bytes old -> all_bytes (mixb i new old).
Proof. intros Hn Ho. unfold mixb, all_bytes in *. apply Forall_app; split; [apply Forall_firstn_; exact Hn|apply Forall_skipn_; exact Ho]. Qed.

Lemma le_bytes_of_le bs : all_bytes bs -> le_bytes (length bs) (of_le bs) = bs.
Proof.
  induction 1 as [|b r Hb Hr IH]; [reflexivity|]. cbn [length le_bytes of_le]. f_equal.
  - replace (b + 256 * of_le r) with (b + of_le r * 256) by lia. rewrite Z_mod_plus_full. apply Z.mod_small. exact Hb.
  - replace (b + 256 * of_le r) with (b + of_le r * 256) by lia. rewrite Z_div_plus_full by lia.
    rewrite Z.div_small by exact Hb. rewrite Z.add_0_l. exact IH.
Qed.

Lemma be_bytes_of_be bs : all_bytes bs -> be_bytes (length bs) (of_be bs) = bs.
Proof.
  intros H. unfold be_bytes, of_be. rewrite <- (rev_length bs). rewrite le_bytes_of_le; [apply rev_involutive|].
  unfold all_bytes in *. apply Forall_rev. exact H.
Qed.

Lemma be_bytes_range n v : all_bytes (be_bytes n v).
Proof. unfold be_bytes, all_bytes. apply Forall_rev. apply le_bytes_range. Qed.

Lemma torn_len a b j : 0 <= a <= b -> b < two31 ->
  exists v, mixb j (i32_be b) (i32_be a) = i32_be v /\ a <= v < two31.
Proof.
  intros Hab Hb. destruct (Nat.le_ge_cases j 4) as [Hj|Hj];
    [|exists b; split; [apply mixb_all; rewrite ?i32_be_length; lia|lia]].
  unfold i32_be. assert (E31 : two31 < two32) by (unfold two31, two32; lia).
  rewrite !Z.mod_small by lia.
  set (m := mixb j (be_bytes 4 b) (be_bytes 4 a)). exists (of_be m).
  assert (Hm : all_bytes m) by (apply mixb_all_bytes; apply be_bytes_range).
  assert (Lm : length m = 4%nat) by (unfold m; rewrite mixb_length; rewrite !be_bytes_length; reflexivity).
  assert (Hv : a <= of_be m /\ (b < two31 -> of_be m < two31)) by (apply torn_be32; [exact Hab|lia|exact Hj]).
  split; [|lia]. rewrite Z.mod_small by lia. rewrite <- Lm. symmetry. apply be_bytes_of_be. exact Hm.
Qed.

Lemma torn_f64 a b j : exists v, mixb j (f64_enc b) (f64_enc a) = f64_enc v /\ f64_ok v.
Proof.
  set (m := mixb j (f64_enc b) (f64_enc a)). exists (f64_dec m).
  assert (Hm : all_bytes m) by (apply mixb_all_bytes; apply le_bytes_range).
  assert (Lm : length m = 8%nat) by (unfold m; rewrite mixb_length; rewrite !f64_enc_length; reflexivity).
  split.
  - unfold f64_enc, f64_dec. rewrite <- Lm. symmetry. apply le_bytes_of_le. exact Hm.
  - unfold f64_ok, f64_dec. pose proof (of_le_range m Hm) as R. unfold zlen in R. rewrite Lm in R. exact R.
Qed.

Lemma torn_f64s : forall box2 box1 j, length box1 = length box2 ->
  exists box3, mixb j (f64s box2) (f64s box1) = f64s box3 /\ length box3 = length box2 /\ Forall f64_ok box3.
Proof.
  induction box2 as [|b2 r2 IH]; intros box1 j E.
  - destruct box1; [|discriminate]. exists []. split; [destruct j; reflexivity|]. split; [reflexivity|constructor].
  - destruct box1 as [|b1 r1]; [discriminate|]. injection E as E. unfold f64s. cbn [flat_map]. fold (f64s r2) (f64s r1).
    rewrite mixb_app by (rewrite !f64_enc_length; reflexivity).
    destruct (torn_f64 b1 b2 j) as (v & -> & Hv).
    destruct (IH r1 (j - length (f64_enc b2))%nat E) as (r3 & -> & L3 & F3).
    exists (v :: r3). split; [reflexivity|]. split; [cbn [length]; rewrite L3; reflexivity|constructor; assumption].
Qed.
