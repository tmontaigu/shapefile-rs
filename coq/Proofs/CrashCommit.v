(** C11, last clause: everything written before the last finalize that
    completed on the .shp remains readable from it.

    Once a finalize has completed with the shapes ss0 (not empty), every later
    crash state of the .shp — any byte-level prefix of the later operations —
    is H' ++ (a byte-prefix of the record stream that contains all records of
    ss0), where H' is the header of one later finalize torn over the header of
    the finalize before it ([mixb]), both of them final headers of lists that
    extend ss0. *)
From SF Require Import Model.Bytes Model.Shapes Model.Encode Model.Writer.
From SF Require Import Proofs.BytesLemmas Proofs.WriterCore Proofs.WriterInv Proofs.HeaderMix
  Proofs.WriterFaults
  Proofs.CrashStates.
Open Scope Z_scope.

Definition lpre {A} (a b : list A) : Prop := exists x, b = a ++ x.

Lemma is_prefix_lpre {A} (a b : list A) : is_prefix a b <-> lpre a b.
Proof.
  split; [|intros [x ->]; apply is_prefix_app].
  induction 1 as [l|x p l _ [y ->]]; [exists l|exists y]; reflexivity.
Qed.

Lemma lpre_refl {A} (a : list A) : lpre a a.
Proof. exists []. symmetry. apply app_nil_r. Qed.

Lemma lpre_trans {A} (a b c : list A) : lpre a b -> lpre b c -> lpre a c.
Proof. intros [x ->] [y ->]. exists (x ++ y). symmetry. apply app_assoc. Qed.

Lemma lpre_app {A} (a b x : list A) : lpre a b -> lpre a (b ++ x).
Proof. intros [y ->]. exists (y ++ x). symmetry. apply app_assoc. Qed.

Lemma records_lpre_len ssA ss : lpre ssA ss -> (length (records_from 1 ssA) <= length (records_from 1 ss))%nat.
Proof. intros [x ->]. rewrite records_from_app, app_length. lia. Qed.

Definition committed_form (ss0 ss : list shape) (buf : bytes) : Prop :=
  exists i ssA ssB m,
    buf = mixb i (header_bytes (final_hdr ssB)) (header_bytes (final_hdr ssA)) ++ firstn m (records_from 1 ss) /\
    lpre ss0 ssA /\ lpre ssA ssB /\ lpre ssB ss /\ (length (records_from 1 ssB) <= m)%nat.

Lemma committed_form_mono ss0 ss x buf : committed_form ss0 ss buf -> committed_form ss0 (ss ++ x) buf.
Proof.
  intros (i & ssA & ssB & m & E & P1 & P2 & P3 & Hm). set (R := records_from 1 ss) in *.
  pose proof (records_lpre_len ssB ss P3) as HB. fold R in HB.
  exists i, ssA, ssB, (Nat.min m (length R)). rewrite records_from_app. fold R.
  split; [|split; [exact P1|split; [exact P2|split; [apply lpre_app; exact P3|lia]]]].
  rewrite E, (firstn_min m R), firstn_app. replace (Nat.min m (length R) - length R)%nat with 0%nat by lia.
  cbn [firstn]. rewrite app_nil_r. reflexivity.
Qed.

(** [ssL]: the shapes of the last finalize that completed; its header is the one
    the buffer holds and the next finalize tears.  [tc]: the log up to the
    finalize that committed [ss0]. *)
Definition CommitInv (tc : list wop) (w : world) (ss0 ss : list shape) : Prop :=
  exists ssL, lpre ss0 ssL /\ lpre ssL ss /\
    fst (bp_of (w_shp w)) = header_bytes (final_hdr ssL) ++ records_from 1 ss /\
    Cuts tc (committed_form ss0 ss) (w_shp w).

Lemma is_prefix_extends {A} (a b p : list A) : is_prefix p (a ++ b) -> is_prefix a p -> exists q, p = a ++ q /\ is_prefix q b.
Proof.
  revert p; induction a as [|x a IH]; intros p Hp Ha; cbn [app] in *.
  - exists p. split; [reflexivity|exact Hp].
  - inversion Ha as [|y a' p' Ha']; subst. inversion Hp as [|z p'' l Hp']; subst.
    destruct (IH p' Hp' Ha') as (q & -> & Hq). exists q. split; [reflexivity|exact Hq].
Qed.

Lemma CommitInv_cuts tc w ss0 ss : CommitInv tc w ss0 ss -> Cuts tc (committed_form ss0 ss) (w_shp w).
Proof. intros (ssL & _ & _ & _ & HC). exact HC. Qed.

Lemma commit_established hs st w ss : WInv hs st w ss -> ws_dirty st = false -> DevCrash (records_from 1 ss) (w_shp w) ->
  CommitInv (explode (trace (w_shp w))) w ss ss.
Proof.
  intros Inv Hd HC. pose proof (Cuts_replay _ _ _ HC) as Hfull. destruct (clean_files hs st w ss Inv Hd) as (Hb & _).
  exists ss. split; [apply lpre_refl|]. split; [apply lpre_refl|]. split; [exact Hb|]. split; [exact Hfull|].
  intros p Hp1 Hp2. rewrite (is_prefix_antisym _ _ Hp1 Hp2), Hfull.
  exists 0%nat, ss, ss, (length (records_from 1 ss)). rewrite mixb_0, firstn_all.
  split; [exact Hb|]. split; [apply lpre_refl|]. split; [apply lpre_refl|]. split; [apply lpre_refl|apply Nat.le_refl].
Qed.

Lemma finalize_commit tc hs ss0 st w ss :
  WInv hs st w ss -> CommitInv tc w ss0 ss -> CommitInv tc (snd (w_finalize st w)) ss0 ss.
Proof.
  intros Inv HI. destruct (ws_dirty st) eqn:Hd; [|rewrite (finalize_clean_silent st w Hd); exact HI].
  destruct (WInv_Ready hs st w ss Inv) as [Hwf Hh Hr Hhs Hdev _]. destruct (Hdev Shp eq_refl) as [_ Hp].
  destruct (finalize_run hs st w ss Hwf Hh Hr Hhs Hd) as (w' & E & _ & Adv). rewrite E. cbn [snd].
  destruct (Adv Shp) as [A _]. cbn [dest_on final_hdr_at get_dev] in A, Hp.
  destruct HI as (ssL & P1 & P2 & Hbuf & HC).
  exists ss. split; [exact (lpre_trans _ _ _ P1 P2)|]. split; [apply lpre_refl|]. split.
  - rewrite (advances_bp _ _ _ A). destruct (bp_fin_ops (final_hdr ss) (bp_of (w_shp w))) as [-> _]. f_equal.
    rewrite Hbuf. apply slot_skipn. right. apply header_bytes_len.
  - apply (cuts_step _ _ _ _ _ _ HC A); [apply seek0_fin_ops|rewrite (Hp (inv_int _ _ _ _ Inv)); apply Nat.le_refl|exact (fun _ H => H)|].
    intros q Hq. rewrite explode_fin_ops in Hq.
    destruct (header_rewrite_mix _ q (bp_of (w_shp w)) Hq) as (i & Hi & ->). rewrite concat_units in *.
    rewrite Hbuf, mixb_old_app by (rewrite header_bytes_len in *; lia). exists i, ssL, ss, (length (records_from 1 ss)). rewrite firstn_all.
    split; [reflexivity|]. split; [exact P1|]. split; [exact P2|]. split; [apply lpre_refl|apply Nat.le_refl].
Qed.

Lemma write_commit tc hs ss0 : ss0 <> [] -> forall st w ss s,
  WInv hs st w ss -> CommitInv tc w ss0 ss -> nonnull ss -> accepts_type ss s = true ->
  CommitInv tc (snd (w_write_shape st w s)) ss0 (ss ++ [s]).
Proof.
  intros Hne0 st w ss s Inv (ssL & P1 & P2 & Hbuf & HC) Hss Ha.
  (* something was committed, so this is not the first write *)
  assert (Hnil : is_nil ss = false) by (destruct P1 as [x ->]; destruct P2 as [y ->]; destruct ss0; [contradiction|reflexivity]).
  destruct (WInv_Ready hs st w ss Inv) as [Hwf Hh Hr Hhs Hdev _]. destruct (Hdev Shp eq_refl) as [_ Hp].
  specialize (Hp (inv_int _ _ _ _ Inv)). cbn [get_dev] in Hp.
  destruct (write_shape_run hs st w ss s Hwf Hh Hr Hhs Hss Ha) as (st' & w' & E & _ & Adv & _). rewrite E. cbn [snd].
  specialize (Adv Shp). rewrite Hnil, (inv_int _ _ _ _ Inv) in Adv. cbn [dest_on dest_ops app get_dev] in Adv.
  set (rc := payload Shp ss s) in *. set (ho := header_bytes (final_hdr ssL)) in *.
  assert (Hend : forall k, write_at (fst (bp_of (w_shp w))) (snd (bp_of (w_shp w))) (firstn k (concat rc))
                           = ho ++ firstn (length (records_from 1 ss) + k) (records_from 1 (ss ++ [s]))).
  { intros k. rewrite Hp, write_at_end, Hbuf, <- app_assoc, (stream_snoc Shp ss s : records_from 1 (ss ++ [s]) = _), firstn_app_2.
    reflexivity. }
  exists ssL. split; [exact P1|]. split; [exact (lpre_app _ _ _ P2)|]. split.
  - rewrite (advances_bp _ _ _ Adv). destruct (bp_of (w_shp w)) as [buf pos]. cbn [fst snd] in *.
    rewrite bp_write_chunks by lia. cbn [fst]. rewrite <- (firstn_all (concat rc)), Hend.
    f_equal. rewrite (stream_snoc Shp ss s : records_from 1 (ss ++ [s]) = _). fold rc. rewrite <- app_length. apply firstn_all.
  - apply (cuts_step _ _ _ _ _ _ HC Adv); [apply seek0_writes|rewrite Hp; apply Nat.le_refl|apply committed_form_mono|].
    intros q Hq. rewrite explode_writes in Hq. destruct (bp_of (w_shp w)) as [buf pos]. cbn [fst snd] in *.
    destruct (writes_cut _ q buf pos ltac:(lia) Hq) as (k & _ & ->). rewrite concat_units. cbn [fst]. rewrite Hend.
    exists 0%nat, ssL, ssL, (length (records_from 1 ss) + k)%nat. rewrite mixb_0.
    split; [reflexivity|]. split; [exact P1|]. split; [apply lpre_refl|]. split; [apply lpre_app; exact P2|].
    pose proof (records_lpre_len ssL ss P2). lia.
Qed.

Lemma commit_closed tc hs ss0 : ss0 <> [] -> step_closed (fun st w ss => WInv hs st w ss /\ CommitInv tc w ss0 ss).
Proof.
  intros Hne. exact (closed_with hs (fun w ss => CommitInv tc w ss0 ss) (write_commit tc hs ss0 Hne) (finalize_commit tc hs ss0)).
Qed.
