(** For C07: on arbitrary bytes, with or without an index, under any injected
    source fault, every reader call returns (a value or an error value, never
    a panic: all the machine arithmetic of the reader stays in range, [RB]),
    and a step of an iteration uses up an index entry or at least 12 bytes of
    the source. *)
From SF Require Import Model.Bytes Model.ShapeType Model.Res Model.Encode Model.Prog Model.Decode Model.Reader.
From SF Require Import Proofs.BytesLemmas Proofs.ProgLemmas Proofs.NoPanic Proofs.DecodeClosed
  Proofs.ReaderSteps.
Open Scope Z_scope.

(** What keeps the machine arithmetic of the reader in range: the declared
    length and the index offsets are 32-bit values, the position is below 2^63
    or is the marker [UNKNOWN_POSITION], the index cursor is not negative. *)
Definition RB (st : rstate) : Prop :=
  in_i32 (h_len (r_hdr st)) /\
  match r_index st with Some idx => Forall (fun e => in_i32 (fst e)) idx | None => True end /\
  (0 <= r_cur st < two63 \/ r_cur st = UNKNOWN_POSITION) /\ 0 <= r_next st.

Definition step_ok (st st' : rstate) : Prop := RB st' /\ r_index st' = r_index st /\ r_hdr st' = r_hdr st.

Lemma step_ok_refl st : RB st -> step_ok st st.
Proof. intros H. exact (conj H (conj eq_refl eq_refl)). Qed.

Lemma step_ok_trans a b c : step_ok a b -> step_ok b c -> step_ok a c.
Proof. intros (_ & I1 & H1) (B & I2 & H2). split; [exact B|split; congruence]. Qed.

Lemma step_set_cur st c : RB st -> 0 <= c < two63 \/ c = UNKNOWN_POSITION -> step_ok st (set_cur st c).
Proof. intros (Hl & Hi & _ & Hn) Hc. exact (conj (conj Hl (conj Hi (conj Hc Hn))) (conj eq_refl eq_refl)). Qed.

Lemma step_set_next st n : RB st -> 0 <= n -> step_ok st (set_next st n).
Proof. intros (Hl & Hi & Hc & _) Hn. exact (conj (conj Hl (conj Hi (conj Hc Hn))) (conj eq_refl eq_refl)). Qed.

(** Positions the reader computes stay below 2^33 (offsets and the declared
    length are 32-bit numbers of words), so that adding a record length to one
    cannot leave the range of [RB]. *)
Definition two33 : Z := 8589934592.

Lemma flen_small st : in_i32 (h_len (r_hdr st)) -> 0 <= flen_bytes st < two33.
Proof. unfold flen_bytes, in_i32, two31, two33. lia. Qed.

Lemma it_read_total req st s : RB st -> 0 <= r_cur st < two33 ->
  exists o st' s', run (it_read req st) s = (Ok (Some o, st'), s') /\ step_ok st st' /\ r_next st' = r_next st /\
    match o with
    | Ok x => exists hdr, run (read_one_shape req) s = (Ok (hdr, x), s')
    | Err e => r_cur st' = match r_index st with Some _ => UNKNOWN_POSITION | None => flen_bytes st end
    | Panic => False
    end.
Proof.
  intros HB Hcur. pose proof (np_run _ (np_read_one_shape req) s) as Hnp.
  destruct (run (read_one_shape req) s) as [[[hdr x]|e|] s'] eqn:Hraw; [| |contradiction].
  - pose proof (read_one_shape_size req s hdr x s' Hraw) as Hsz.
    exists (Ok x). eexists. exists s'. split; [apply (it_read_ok req st s hdr x s' Hraw); unfold two33, two31, two64 in *; lia|].
    split; [|split; [reflexivity|eauto]]. apply step_set_cur; [exact HB|left; unfold two33, two31, two63 in *; lia].
  - exists (Err e). eexists. exists s'. split; [apply (it_read_err req st s e s' Hraw)|].
    split; [|split; reflexivity]. apply step_set_cur; [exact HB|].
    destruct (r_index st); [right; reflexivity|left]. pose proof (flen_small st (proj1 HB)). unfold two33, two63 in *. lia.
Qed.

Lemma it_next_total req st s : RB st ->
  exists o st' s', run (it_next req st) s = (Ok (o, st'), s') /\ step_ok st st' /\
    match r_index st, o with
    | _, None => True
    | Some idx, Some _ => r_next st' = r_next st + 1 /\ r_next st < zlen idx
    | None, Some (Ok x) => exists hdr, run (read_one_shape req) s = (Ok (hdr, x), s')
    | None, Some (Err e) => r_cur st' = flen_bytes st
    | None, Some Panic => False
    end.
Proof.
  intros HB. pose proof HB as (Hl & Hi & Hc & Hn). unfold it_next. destruct (r_index st) as [idx|] eqn:Hidx.
  - rewrite nth_entry_nonneg by exact Hn. destruct (nth_error idx (Z.to_nat (r_next st))) as [[off w]|] eqn:He;
      [|exists None, st, s; split; [reflexivity|split; [apply step_ok_refl, HB|exact I]]].
    assert (Hlt : r_next st < zlen idx).
    { assert (Z.to_nat (r_next st) < length idx)%nat by (apply nth_error_Some; congruence). unfold zlen. lia. }
    assert (Hoff : in_i32 off).
    { rewrite Forall_forall in Hi. apply (Hi (off, w)). eapply nth_error_In, He. }
    set (st1 := set_next st (r_next st + 1)).
    pose proof (step_set_next st (r_next st + 1) HB ltac:(lia)) as Hok1. fold st1 in Hok1.
    unfold offset_in_bytes. destruct (Z.ltb_spec (off * 2) 0) as [Hneg|Hpos].
    { exists (Some (Err EIoInvalidData)), st1, s. split; [reflexivity|]. split; [exact Hok1|split; [reflexivity|exact Hlt]]. }
    (* both ways of getting to the record end in the same call of [it_read] *)
    assert (Hread : forall sx, exists o st' s', run (it_read req (set_cur st1 (off * 2))) sx = (Ok (Some o, st'), s') /\
              step_ok st st' /\ r_next st' = r_next st + 1).
    { intros sx. pose proof (step_set_cur st1 (off * 2) (proj1 Hok1)) as Hok2.
      destruct (it_read_total req _ sx (proj1 (Hok2 ltac:(left; unfold in_i32, two31, two63 in *; lia))))
        as (o & st' & s' & Hrun & Hok' & Hn' & _); [cbn [set_cur r_cur]; unfold in_i32, two31, two33 in *; lia|].
      exists o, st', s'. exact (conj Hrun (conj Hok' Hn')). }
    destruct (Z.eqb_spec (off * 2) (r_cur st1)) as [E|E].
    + replace st1 with (set_cur st1 (off * 2)) by (rewrite E; reflexivity).
      destruct (Hread s) as (o & st' & s' & Hrun & Hok & Hn'). exists (Some o), st', s'.
      exact (conj Hrun (conj Hok (conj Hn' Hlt))).
    + rewrite run_bind.
      destruct (run_catch_np (seek_start (off * 2)) s (np_seek_start_ _)) as (r & s1 & Hrun & Hnp & _).
      rewrite Hrun. destruct r as [q|e|]; [| |contradiction].
      * destruct (Hread s1) as (o & st' & s' & Hrun' & Hok & Hn'). exists (Some o), st', s'.
        exact (conj Hrun' (conj Hok (conj Hn' Hlt))).
      * exists (Some (Err e)), (set_cur st1 UNKNOWN_POSITION), s1. split; [reflexivity|].
        split; [|split; [reflexivity|exact Hlt]].
        exact (step_ok_trans _ _ _ Hok1 (step_set_cur st1 _ (proj1 Hok1) (or_intror eq_refl))).
  - destruct (Z.leb_spec (flen_bytes st) (r_cur st)) as [Hge|Hlt].
    + exists None, st, s. split; [reflexivity|]. split; [apply step_ok_refl, HB|exact I].
    + pose proof (flen_small st Hl) as Hf.
      assert (Hcur : 0 <= r_cur st < two33).
      { destruct Hc as [Hc|Hc]; [lia|]. rewrite Hc in Hlt. unfold UNKNOWN_POSITION, two64, two33 in *. lia. }
      destruct (it_read_total req st s HB Hcur) as (o & st' & s' & Hrun & Hok & _ & Hcase).
      exists (Some o), st', s'. split; [exact Hrun|]. split; [exact Hok|]. rewrite Hidx in Hcase. exact Hcase.
Qed.

Lemma it_pull_total req : forall fuel st s, RB st ->
  exists items ended st' s', run (it_pull fuel req st) s = (Ok (items, ended, st'), s') /\ step_ok st st'.
Proof.
  induction fuel as [|f IH]; intros st s HB; cbn [it_pull].
  - exists [], false, st, s. split; [reflexivity|apply step_ok_refl, HB].
  - rewrite run_bind. destruct (it_next_total req st s HB) as (o & st1 & s1 & Hrun & Hok1 & _). rewrite Hrun. cbn [fst snd].
    destruct o as [item|].
    + destruct (IH st1 s1 (proj1 Hok1)) as (items & ended & st2 & s2 & Hrun2 & Hok2).
      rewrite run_bind, Hrun2. exists (item :: items), ended, st2, s2.
      split; [reflexivity|exact (step_ok_trans _ _ _ Hok1 Hok2)].
    + exists [], true, st1, s1. split; [reflexivity|exact Hok1].
Qed.

Lemma r_seek_total st s k : RB st -> zlen (s_data s) < two63 -> 0 <= k ->
  exists r st' s', run (r_seek st k) s = (Ok (r, st'), s') /\ step_ok st st' /\ r <> Panic.
Proof.
  intros HB Hd Hk. pose proof HB as (Hl & Hi & Hc & Hn). pose proof (step_ok_refl st HB) as Hsame.
  unfold r_seek. destruct (r_index st) as [idx|] eqn:Hidx.
  - (* where the seek succeeds, at position [q] below 2^63 *)
    assert (Hset : forall q, 0 <= q < two63 -> step_ok st (set_next (set_cur st q) (Z.min k (zlen idx)))).
    { intros q Hq. pose proof (zlen_nonneg idx). pose proof (step_set_cur st q HB (or_introl Hq)) as H1.
      apply (step_ok_trans _ _ _ H1), step_set_next; [exact (proj1 H1)|lia]. }
    rewrite nth_entry_nonneg by exact Hk. destruct (nth_error idx (Z.to_nat k)) as [[off w]|] eqn:He.
    + assert (Hoff : in_i32 off) by (rewrite Forall_forall in Hi; apply (Hi (off, w)); eapply nth_error_In, He).
      unfold offset_in_bytes. destruct (Z.ltb_spec (off * 2) 0) as [Hneg|Hpos].
      * exists (Err EIoInvalidData), st, s. split; [reflexivity|]. split; [exact Hsame|discriminate].
      * rewrite run_bind. destruct (run_catch_np (seek_start (off * 2)) s (np_seek_start_ _)) as (r & s1 & Hrun & Hnp & Hraw).
        rewrite Hrun. destruct r as [q|e|]; [| |contradiction]; cbn [run].
        -- destruct (run_seek_start_ok _ _ _ _ Hraw) as [-> _]. eexists; eexists; eexists. split; [reflexivity|].
           split; [apply Hset; unfold in_i32, two31, two63 in *; lia|discriminate].
        -- exists (Err e), st, s1. split; [reflexivity|]. split; [exact Hsame|discriminate].
    + rewrite run_bind. destruct (run_catch_np seek_end s np_seek_end_) as (r & s1 & Hrun & Hnp & Hraw).
      rewrite Hrun. destruct r as [q|e|]; [| |contradiction]; cbn [run].
      * destruct (run_seek_end_ok _ _ _ Hraw) as [-> _]. eexists; eexists; eexists. split; [reflexivity|].
        split; [apply Hset; pose proof (zlen_nonneg (s_data s)); lia|discriminate].
      * exists (Err e), st, s1. split; [reflexivity|]. split; [exact Hsame|discriminate].
  - exists (Err EMissingIndex), st, s. split; [reflexivity|]. split; [exact Hsame|discriminate].
Qed.

Lemma r_read_nth_total req st s i : RB st -> zlen (s_data s) < two63 -> 0 <= i ->
  exists o st' s', run (r_read_nth req st i) s = (Ok (o, st'), s') /\ step_ok st st' /\ o <> Some Panic.
Proof.
  intros HB Hd Hi0. pose proof (step_ok_refl st HB) as Hsame. unfold r_read_nth. destruct (r_index st) as [idx|] eqn:Hidx.
  - destruct (Z.leb_spec (zlen idx) i).
    + exists None, st, s. split; [reflexivity|]. split; [exact Hsame|discriminate].
    + destruct (r_seek_total st s i HB Hd Hi0) as (r & st1 & s1 & Hrun & Hok1 & Hnp).
      rewrite run_bind, Hrun. cbn [fst snd]. destruct r as [u|e|]; [| |contradiction].
      * set (st2 := set_next (set_cur st1 UNKNOWN_POSITION) 0).
        pose proof (step_set_cur st1 _ (proj1 Hok1) (or_intror eq_refl)) as Hu.
        pose proof (step_ok_trans _ _ _ Hok1 (step_ok_trans _ _ _ Hu (step_set_next _ 0 (proj1 Hu) ltac:(lia)))) as Hok2.
        fold st2 in Hok2.
        rewrite run_bind. destruct (run_catch_np (read_one_shape req) s1 (np_read_one_shape req)) as (r & s2 & Hrun2 & Hnp2 & _).
        rewrite Hrun2. destruct r as [[hdr x]|e|]; [| |contradiction].
        -- rewrite run_bind. destruct (run_catch_np (seek_start 100) s2 (np_seek_start_ _)) as (r3 & s3 & Hrun3 & Hnp3 & _).
           rewrite Hrun3. destruct r3 as [q|e|]; [| |contradiction]; cbn [run].
           ++ eexists; eexists; eexists. split; [reflexivity|]. split; [|discriminate].
              exact (step_ok_trans _ _ _ Hok2 (step_set_cur st2 100 (proj1 Hok2) ltac:(left; unfold two63; lia))).
           ++ exists (Some (Err e)), st2, s3. split; [reflexivity|]. split; [exact Hok2|discriminate].
        -- exists (Some (Err e)), st2, s2. split; [reflexivity|]. split; [exact Hok2|discriminate].
      * exists (Some (Err e)), st1, s1. split; [reflexivity|]. split; [exact Hok1|discriminate].
  - exists (Some (Err EMissingIndex)), st, s. split; [reflexivity|]. split; [exact Hsame|discriminate].
Qed.

(** The same condition as [rcall_wf] of IndexReader.v, which this file does not import. *)
Definition rcall_nonneg (c : rcall) : Prop := match c with RNth i => 0 <= i | RSeek k => 0 <= k | _ => True end.

Lemma consumes_field {A} n (dec : bytes -> A) : consumes (bs <-- take n ;; Ret (dec bs)) (Z.of_nat n).
Proof. eapply consumes_bind; [apply consumes_take|lia|intros; rewrite Z.sub_diag; apply consumes_ret]. Qed.

Lemma consumes_i32_be : consumes read_i32_be 4. Proof. exact (consumes_field 4 _). Qed.
Lemma consumes_i32_le : consumes read_i32_le 4. Proof. exact (consumes_field 4 _). Qed.
Lemma consumes_f64 : consumes read_f64 8. Proof. exact (consumes_field 8 _). Qed.

Lemma consumes_shape_type : consumes read_shape_type 4.
Proof.
  unfold read_shape_type. eapply consumes_bind; [apply consumes_i32_le|lia|intros code].
  destruct (st_decode code); [apply consumes_ret|apply consumes_fail].
Qed.

Lemma consumes_record_header : consumes read_record_header 8.
Proof.
  unfold read_record_header. do 2 (eapply consumes_bind; [apply consumes_i32_be|lia|intros ?]). apply consumes_ret.
Qed.

Lemma consumes_read_header : consumes read_header 100.
Proof.
  unfold read_header. eapply consumes_bind; [apply consumes_i32_be|lia|intros code].
  destruct (negb (code =? 9994)); [apply consumes_fail|].
  eapply consumes_bind; [apply (consumes_take 20)|lia|intros _].
  eapply consumes_bind; [apply consumes_i32_be|lia|intros len].
  eapply consumes_bind; [apply consumes_i32_le|lia|intros ver].
  eapply consumes_bind; [apply consumes_shape_type|lia|intros t].
  do 8 (eapply consumes_bind; [apply consumes_f64|lia|intros ?]). apply consumes_ret.
Qed.

Lemma read_header_src_of data h s1 : run read_header (src_of data) = (Ok h, s1) ->
  clean s1 /\ s_data s1 = data /\ s_pos s1 = 100 /\ 100 <= zlen data.
Proof.
  intros E. destruct (consumes_read_header _ _ _ (clean_src_of data) E) as (C & D & P & B).
  specialize (B eq_refl). rewrite P in B. auto.
Qed.

(** 12: the 8 bytes of the record header and the 4 of the type code. *)
Lemma read_one_shape_consumes req s hdr x s' :
  clean s -> run (read_one_shape req) s = (Ok (hdr, x), s') ->
  clean s' /\ s_data s' = s_data s /\ s_pos s + 12 <= s_pos s' <= zlen (s_data s).
Proof.
  intros Hc H. destruct (simple_clean _ _ _ _ (simple_read_one_shape req) Hc H) as [Hc' Hd].
  split; [exact Hc'|]. split; [exact Hd|].
  unfold read_one_shape in H. stepn H h s1 E1. destruct (consumes_record_header _ _ _ Hc E1) as (C1 & D1 & P1 & B1).
  destruct ((snd h * 2 <? 0) || (two31 <=? snd h * 2)); [discriminate|].
  unfold read_from in H. stepn H y s2 E2. cbn [run] in H. injection H as _ _ <-.
  stepn E2 t s3 E3. destruct (consumes_shape_type _ _ _ C1 E3) as (C3 & D3 & P3 & B3). cbv zeta in E2.
  match type of E2 with run ?c _ = _ => assert (Hs : simple c) end.
  { destruct req as [rt|]; [destruct (st_eqb t rt); [apply simple_read_content|apply simple_fail]|apply simple_read_content]. }
  destruct (simple_pos _ Hs s3 _ s2 (proj1 C3) E2) as [M1 M2]. rewrite D3, D1 in *. lia.
Qed.

(** For C07_open and C07_index_parse (Properties/C07.v): what [read_header] and
    the index reader decode from bytes are 32-bit values. *)
Lemma take_bytes n s bs s' : all_bytes (s_data s) -> run (take n) s = (Ok bs, s') -> all_bytes bs /\ length bs = n.
Proof.
  intros Hb E. destruct (run_take_ok n s bs s' E) as (-> & Hn & _). split; [|apply firstn_length_le; exact Hn].
  rewrite s_rest_skipn. unfold all_bytes in *. apply Forall_firstn_, Forall_skipn_, Hb.
Qed.

Lemma i32_of_be_range bs : all_bytes bs -> length bs = 4%nat -> in_i32 (i32_of_be bs).
Proof.
  intros Hb Hl. unfold i32_of_be, of_be. apply to_i32_range.
  assert (Hr : all_bytes (rev bs)) by (unfold all_bytes in *; apply Forall_rev; exact Hb).
  pose proof (of_le_range (rev bs) Hr) as H. rewrite zlen_rev in H. unfold zlen in H. rewrite Hl in H. exact H.
Qed.

Lemma read_i32_be_range s v s' : all_bytes (s_data s) -> run read_i32_be s = (Ok v, s') -> in_i32 v.
Proof.
  intros Hb. unfold read_i32_be. rewrite run_bind. destruct (run (take 4) s) as [[bs|e|] s1] eqn:E; try discriminate.
  cbn [run]. intros H. injection H as <- _. destruct (take_bytes 4 s bs s1 Hb E). apply i32_of_be_range; assumption.
Qed.

(* [stepn] with fresh names *)
Ltac stepn_fresh H := let x := fresh "x" in let s1 := fresh "s" in let E := fresh "E" in stepn H x s1 E.

Lemma read_header_len s h s' : all_bytes (s_data s) -> run read_header s = (Ok h, s') -> in_i32 (h_len h).
Proof.
  intros Hb H. unfold read_header in H. stepn H code sa Ea.
  destruct (negb (code =? 9994)); [cbn in H; discriminate|].
  stepn H skip sb Eb. stepn H len sc Ec.
  assert (Hb1 : all_bytes (s_data sb)) by (rewrite (run_data _ _ _ _ Eb), (run_data _ _ _ _ Ea); exact Hb).
  pose proof (read_i32_be_range _ _ _ Hb1 Ec) as Hlen.
  do 10 (stepn_fresh H). cbn [run] in H. injection H as <- _. exact Hlen.
Qed.

Lemma rep_nat_forall {A} (P : A -> Prop) (p : prog A) :
  (forall s a s', all_bytes (s_data s) -> run p s = (Ok a, s') -> P a) ->
  forall n s l s', all_bytes (s_data s) -> run (rep_nat n p) s = (Ok l, s') -> Forall P l.
Proof.
  intros Hp. induction n as [|n IH]; intros s l s' Hb H; cbn [rep_nat] in H.
  - injection H as <- _. constructor.
  - stepn H a sa Ea. stepn H l1 sb Eb. cbn [run] in H. injection H as <- _.
    constructor; [exact (Hp _ _ _ Hb Ea)|]. apply (IH sa l1 sb); [rewrite (run_data _ _ _ _ Ea); exact Hb|exact Eb].
Qed.
