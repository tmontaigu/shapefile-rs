(** C20, polygons there and back.  A shapefile ring and a geo-types ring are
    each other's [view] / [unview]; closed on one side is closed on the other;
    `all_rings` normalises every ring once more; and [polygon_trip] groups the
    normalised rings again, ring by ring, each kept or reversed as a whole. *)
From SF Require Import Model.Bytes Model.Shapes Model.Res Model.Construct Model.Geo.
From SF Require Import Proofs.BoxExact Proofs.PolygonCtor Proofs.GeoProofs.
Open Scope Z_scope.

Definition role_of_bool (o : bool) : role := if o then Outer else Inner.

(** A geo-types ring as the conversion hands it to the polygon constructor: the inverse of [view]. *)
Definition unview (a : bool * list Geo.coord) : role * list pt := (role_of_bool (fst a), map (pt_of XY) (snd a)).

Lemma unview_view r : Forall clean2 (snd r) -> unview (view r) = r.
Proof.
  intros H. destruct r as [[|] ps]; unfold unview, view; cbn [fst snd role_is_outer role_of_bool] in *;
    rewrite (map_pt_of_xy _ H); reflexivity.
Qed.

Lemma map_unview_view rings : Forall (fun r => Forall clean2 (snd r)) rings -> map unview (map view rings) = rings.
Proof.
  intros H. rewrite map_map, (map_ext_Forall _ id), map_id; [reflexivity|]. eapply Forall_impl; [|exact H]. apply unview_view.
Qed.

Lemma rings_of_gpoly_flat p : rings_of_gpoly p = map unview (flat_poly p).
Proof. unfold rings_of_gpoly, flat_poly. cbn [map]. rewrite map_map. reflexivity. Qed.

Definition ring_sim {A} (a b : list A) : Prop := b = a \/ b = rev a.

Definition gclosed (l : list Geo.coord) : Prop := l <> [] /\ geo_close l = l.

Lemma last_map {A B} (f : A -> B) (l : list A) d0 : last (map f l) (f d0) = f (last l d0).
Proof. induction l as [|a l IH]; [reflexivity|]. cbn [map]. destruct l as [|b l']; [reflexivity|]. exact IH. Qed.

Lemma gclosed_xy ps : gclosed (map xy ps) <-> is_part_closed XY ps = true.
Proof.
  destruct ps as [|p0 r]; [split; [intros [H _]; contradiction H; reflexivity|discriminate]|].
  unfold gclosed, geo_close, is_part_closed. cbn [map].
  change (xy p0 :: map xy r) with (map xy (p0 :: r)). rewrite (last_map xy (p0 :: r) p0).
  change (pt_eq XY p0 (last (p0 :: r) p0)) with (coord_eq (xy p0) (xy (last (p0 :: r) p0))).
  destruct (coord_eq (xy p0) (xy (last (p0 :: r) p0))).
  - split; [reflexivity|intros _; split; [discriminate|reflexivity]].
  - split; [|discriminate]. intros [_ H]. apply (f_equal (@length _)) in H. rewrite app_length in H. cbn in H. lia.
Qed.

Lemma gclosed_part l : gclosed l -> is_part_closed XY (map (pt_of XY) l) = true.
Proof. intros H. apply gclosed_xy. rewrite map_xy_pt_of. exact H. Qed.

Lemma ring_sim_trans {A} (a b c : list A) : ring_sim a b -> ring_sim b c -> ring_sim a c.
Proof. intros [->| ->] [->| ->]; [left|right|right|left]; try reflexivity. apply rev_involutive. Qed.

Lemma ring_sim_map {A B} (f : A -> B) a b : ring_sim a b -> ring_sim (map f a) (map f b).
Proof. intros [->| ->]; [left; reflexivity|right; apply map_rev]. Qed.

(** [b] is the ring [a] kept or reversed as a whole, same role, and closed. *)
Definition kept_or_reversed (a b : role * list pt) : Prop :=
  fst a = fst b /\ ring_sim (snd a) (snd b) /\ is_part_closed XY (snd b) = true.

Lemma kept_or_reversed_trans a b c : kept_or_reversed a b -> kept_or_reversed b c -> kept_or_reversed a c.
Proof. intros (F1 & S1 & _) (F2 & S2 & C2). split; [congruence|]. split; [exact (ring_sim_trans _ _ _ S1 S2)|exact C2]. Qed.

Lemma close_and_reorder_once r : is_part_closed XY (snd r) = true -> kept_or_reversed r (close_and_reorder XY r).
Proof.
  intros Hc. unfold close_and_reorder, close_points. rewrite Hc. cbn [fst snd].
  split; [reflexivity|]. split; [apply reorder_cases|apply reorder_closed, Hc].
Qed.

Lemma close_and_reorder_twice r :
  is_part_closed XY (snd r) = true -> kept_or_reversed r (close_and_reorder XY (close_and_reorder XY r)).
Proof.
  intros Hc. pose proof (close_and_reorder_once r Hc) as S.
  exact (kept_or_reversed_trans _ _ _ S (close_and_reorder_once _ (proj2 (proj2 S)))).
Qed.

Definition ext_nonempty (p : gpoly) : Prop := gp_ext p <> [].

Lemma ext_nonempty_flat gs : Forall (fun a => fst a = true -> snd a <> []) (flat_polys gs) -> Forall ext_nonempty gs.
Proof.
  unfold flat_polys. rewrite Forall_flat_map. apply Forall_impl. intros p H. inversion H as [|? ? H1 _]. exact (H1 eq_refl).
Qed.

(** The polygon constructor panics on an empty first ring only. *)
Lemma polygon_rings_from_ok p : ext_nonempty p ->
  polygon_rings_from p = Ok (map (close_and_reorder XY) (rings_of_gpoly p)).
Proof.
  intros Hp. unfold polygon_rings_from. rewrite mk_polygon_parts. unfold rings_of_gpoly at 1. cbn [map].
  edestruct (box_from_parts_ok XY) as [b Hb]; [|rewrite Hb; reflexivity].
  apply close_and_reorder_nonempty. cbn [snd]. intros E. apply map_eq_nil in E. exact (Hp E).
Qed.

Lemma all_rings_ok ps : Forall ext_nonempty ps ->
  all_rings ps = Ok (map (close_and_reorder XY) (map unview (flat_polys ps))).
Proof.
  induction 1 as [|p r Hp _ IH]; [reflexivity|]. cbn [all_rings]. rewrite (polygon_rings_from_ok p Hp), IH.
  unfold flat_polys. cbn [flat_map]. rewrite !map_app, rings_of_gpoly_flat. reflexivity.
Qed.

Definition good_gpoly (p : gpoly) : Prop := gclosed (gp_ext p) /\ Forall gclosed (gp_ints p).

Lemma good_flat_poly p : good_gpoly p -> Forall (fun a => gclosed (snd a)) (flat_poly p).
Proof. intros [He Hi]. constructor; [exact He|]. apply Forall_map. exact Hi. Qed.

(** [f] is one normalisation for a single geo polygon and two for a
    multi-polygon, whose rings pass through `all_rings` first. *)
Lemma polygon_trip (f : role * list pt -> role * list pt) R s flat :
  (forall r, is_part_closed XY (snd r) = true -> kept_or_reversed r (f r)) ->
  Forall (fun a => gclosed (snd a)) flat -> outer_first flat ->
  mk_polygon XY R = Ok s -> map (close_and_reorder XY) R = map f (map unview flat) ->
  let trip a := view (f (unview a)) in
  exists ps', to_geo s = Some (GMultiPolygon ps') /\ flat_polys ps' = map trip flat /\
    Forall (fun a => fst (trip a) = fst a /\ ring_sim (snd a) (snd (trip a))) flat.
Proof.
  intros Hf Hg Hfirst Hmk HR trip.
  assert (Ht : Forall (fun a => fst (trip a) = fst a /\ ring_sim (snd a) (snd (trip a)) /\ ring_closed (trip a)) flat).
  { eapply Forall_impl; [|exact Hg]. intros a Ha.
    destruct (Hf (unview a) (gclosed_part _ Ha)) as (H1 & H2 & H3). unfold trip, view. cbn [fst snd].
    split; [rewrite <- H1; destruct a as [[|] l]; reflexivity|]. split.
    - apply (ring_sim_map xy) in H2. cbn [unview snd] in H2. rewrite map_xy_pt_of in H2. exact H2.
    - apply gclosed_xy, H3. }
  apply mk_polygon_inv in Hmk. destruct Hmk as (b & _ & ->). rewrite HR.
  exists (group_rings (map view (map f (map unview flat))) None []). split; [reflexivity|].
  replace (map view (map f (map unview flat))) with (map trip flat) by (rewrite !map_map; reflexivity). split.
  - apply group_rings_flat_all; [apply Forall_map; eapply Forall_impl; [|exact Ht]; intros a H; apply H|].
    destruct Ht as [|a r (E & _) _]; [exact I|]. cbn [map]. destruct (trip a) as [o l], a as [[|] l0]; cbn [fst] in E; subst o;
      [exact I|contradiction Hfirst].
  - eapply Forall_impl; [|exact Ht]. intros a (H1 & H2 & _). split; assumption.
Qed.

(** What becomes of one ring of the geometry: shapefile ring, two normalisations, back to coordinates. *)
Definition ring_trip (a : bool * list Geo.coord) : bool * list Geo.coord :=
  let r := close_and_reorder XY (close_and_reorder XY (role_of_bool (fst a), map (pt_of XY) (snd a))) in
  (role_is_outer (fst r), map xy (snd r)).

(** A single geo polygon: one normalisation. *)
Definition ring_trip1 (a : bool * list Geo.coord) : bool * list Geo.coord :=
  let r := close_and_reorder XY (role_of_bool (fst a), map (pt_of XY) (snd a)) in
  (role_is_outer (fst r), map xy (snd r)).
