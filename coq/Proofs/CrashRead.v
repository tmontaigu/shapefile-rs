(** C11, reader side: on ANY 100 bytes followed by a byte-prefix of a stream of
    conformant records, the reader either fails to open or yields a prefix of
    what the records denote (then at most one error), never anything else. *)
From SF Require Import Model.Bytes Model.Res Model.Encode Model.Prog Model.Decode Model.Reader Spec.Esri
  Spec.Denote.
From SF Require Import Proofs.BytesLemmas Proofs.ProgLemmas Proofs.DecodeClosed Proofs.ReaderSteps
  Proofs.ReaderSeq Proofs.NoPanic Proofs.ReaderRobust.
Open Scope Z_scope.

Theorem crash_iteration req data K : forall fuel rs st s,
  seq_at data K st s rs -> Forall (record_ok req) rs -> K <= s_pos s + zlen (ref_records_bytes rs) ->
  exists j tail ended st' s',
    run (it_pull fuel req st) s
    = (Ok (map (fun nr => Ok (denote (snd nr))) (firstn j rs) ++ tail, ended, st'), s') /\
    (tail = [] \/ tail = [Err EIoEof]) /\
    (* at least the records that lie wholly inside both the retained bytes and the declared length *)
    (forall n, (n <= fuel)%nat -> (n <= length rs)%nat ->
       s_pos s + zlen (ref_records_bytes (firstn n rs)) <= K ->
       s_pos s + zlen (ref_records_bytes (firstn n rs)) <= flen_bytes st -> (n <= j)%nat).
Proof.
  induction fuel as [|fuel IH]; intros rs st s Hat Hok HK.
  - exists 0%nat, [], false, st, s. split; [reflexivity|]. split; [left; reflexivity|]. intros n Hn _ _ _. exact Hn.
  - pose proof (sq_cur _ _ _ _ _ Hat) as Hcur. destruct (Z.leb_spec (flen_bytes st) (r_cur st)) as [Hge|Hlt].
    + (* the declared length is reached *)
      exists 0%nat, [], true, st, s. split; [apply it_pull_end; [apply Hat|exact Hge]|]. split; [left; reflexivity|].
      intros [|n] _ Hn _ Hfl; [apply Nat.le_refl|exfalso]. destruct rs as [|[num r] rs']; [cbn in Hn; lia|].
      cbn [firstn] in Hfl. rewrite ref_records_cons, zlen_app in Hfl. cbn [fst snd] in Hfl.
      pose proof (ref_record_pos num r). pose proof (zlen_nonneg (ref_records_bytes (firstn n rs'))). lia.
    + destruct rs as [|[num r] rs'].
      * (* no record left: reading hits the end of the source *)
        destruct Hat as [Hidx [Hf Hp] _ Hd _ _]. cbn in HK.
        assert (Hre : s_rest s = []) by (apply rest_beyond; rewrite Hd; unfold zlen; rewrite firstn_length; lia).
        destruct (read_at_end req s (conj Hf Hp) Hre) as (s2 & Hrun).
        exists 0%nat, [Err EIoEof]. eexists. eexists. exists s2. split; [apply it_pull_err; assumption|].
        split; [right; reflexivity|]. intros n _ Hn _ _. exact Hn.
      * inversion Hok as [|? ? Hok1 Hok2]; subst. rewrite ref_records_cons, zlen_app in HK. cbn [fst snd] in HK.
        pose proof (seq_step req _ _ st s num r rs' Hat Hok1 Hlt) as Hstep. cbv zeta in Hstep.
        destruct (Z.leb_spec (s_pos s + zlen (ref_record num r)) K) as [Hin|Hcut].
        -- destruct Hstep as (s1 & Hat1 & Hp1 & Hpull).
           destruct (IH rs' _ s1 Hat1 Hok2 ltac:(lia)) as (j & tail & ended & st3 & s3 & Hrun3 & Htail & Hlb).
           exists (S j), tail, ended, st3, s3. split; [exact (Hpull _ _ _ _ _ Hrun3)|]. split; [exact Htail|].
           intros [|n] Hnf Hn Hins Hfl; [lia|]. cbn [firstn length] in Hn, Hins, Hfl.
           rewrite ref_records_cons, zlen_app in Hins, Hfl. cbn [fst snd] in Hins, Hfl.
           apply le_n_S, Hlb; [lia|lia|lia|]. rewrite flen_bytes_set_cur. lia.
        -- destruct Hstep as (s2 & Herr). exists 0%nat, [Err EIoEof]. eexists. eexists. exists s2.
           split; [apply Herr|]. split; [right; reflexivity|].
           intros [|n] _ Hn Hins _; [apply Nat.le_refl|exfalso]. cbn [firstn] in Hins.
           rewrite ref_records_cons, zlen_app in Hins. cbn [fst snd] in Hins.
           pose proof (zlen_nonneg (ref_records_bytes (firstn n rs'))). lia.
Qed.

(** [_lb]: with the lower bound on the number [j] of records yielded (the last
    conjunct).  The bound on the length of the records only keeps the reader's
    position, added up in `usize`, below 2^64 ([sq_small]); 2^33 is what
    [FileFits] gives for a written file ([written_records_small], RoundTrip.v). *)
Theorem crash_read_noindex_lb req (hb : bytes) rs m fuel :
  length hb = 100%nat -> Forall (record_ok req) rs -> 0 <= m <= zlen (ref_records_bytes rs) ->
  zlen (ref_records_bytes rs) < two31 * 4 ->
  let data := hb ++ firstn (Z.to_nat m) (ref_records_bytes rs) in
  (exists e s', run read_header (src_of data) = (Err e, s') /\ run r_new (src_of data) = (Err e, s')) \/
  (exists h s1 j tail ended st' s',
     run read_header (src_of data) = (Ok h, s1) /\
     run (st <-- r_new ;; it_pull fuel req st) (src_of data)
     = (Ok (map (fun nr => Ok (denote (snd nr))) (firstn j rs) ++ tail, ended, st'), s') /\
     (tail = [] \/ tail = [Err EIoEof]) /\
     (forall n, (n <= fuel)%nat -> (n <= length rs)%nat ->
        zlen (ref_records_bytes (firstn n rs)) <= m ->
        100 + zlen (ref_records_bytes (firstn n rs)) <= Z.max 0 (h_len h) * 2 -> (n <= j)%nat)).
Proof.
  intros Hhb Hok Hm Hsmall data. set (R := ref_records_bytes rs) in *.
  unfold r_new. destruct (run read_header (src_of data)) as [[h|e|] s1] eqn:Eh.
  - right. destruct (read_header_src_of _ _ _ Eh) as (Hc1 & P3 & P1 & _).
    (* the reader stands behind the header, on the first 100 + m bytes of the header with all the records *)
    set (st0 := mkr h None 100 0).
    assert (Hat : seq_at (hb ++ R) (100 + m) st0 s1 rs).
    { constructor; [reflexivity|exact Hc1|cbn [st0 r_cur]; lia| | |rewrite P1; fold R; unfold two31, two64 in *; lia].
      - rewrite P3. unfold data. replace (Z.to_nat (100 + m)) with (length hb + Z.to_nat m)%nat by lia.
        symmetry. apply firstn_app_2.
      - exists []. rewrite P1, app_nil_r. apply skipn_app_length, Hhb. }
    destruct (crash_iteration req _ _ fuel rs st0 s1 Hat Hok) as (j & tail & ended & st' & s' & Hrun & Htail & Hlb);
      [rewrite P1; fold R; lia|].
    exists h, s1, j, tail, ended, st', s'. split; [reflexivity|]. split; [rewrite !run_bind, Eh; exact Hrun|].
    split; [exact Htail|]. intros n Hnf Hn Hin Hfl. apply Hlb; try assumption; rewrite P1; [lia|exact Hfl].
  - left. exists e, s1. split; [reflexivity|]. rewrite run_bind, Eh. reflexivity.
  - exfalso. pose proof (np_run _ np_read_header (src_of data)) as N. rewrite Eh in N. apply N. reflexivity.
Qed.

Lemma open_fails {A} (f : header -> A) s r s1 : run read_header s = (r, s1) -> (forall h, r <> Ok h) ->
  exists r' s', run (h <-- read_header ;; Ret (f h)) s = (r', s') /\ forall a, r' <> Ok a.
Proof.
  intros E Hr. rewrite run_bind, E. destruct r as [h|e|]; [destruct (Hr h eq_refl)| |];
    eexists; eexists; (split; [reflexivity|discriminate]).
Qed.

Lemma short_header_fails (B : bytes) h s' : (length B < 100)%nat -> run read_header (src_of B) = (Ok h, s') -> False.
Proof. intros HB Eh. destruct (read_header_src_of _ _ _ Eh) as (_ & _ & _ & L). unfold zlen in L. lia. Qed.

Lemma short_open {A} (f : header -> A) (B : bytes) : (length B < 100)%nat ->
  exists r s', run (h <-- read_header ;; Ret (f h)) (src_of B) = (r, s') /\ forall a, r <> Ok a.
Proof.
  intros HB. destruct (run read_header (src_of B)) as [r s1] eqn:Eh. apply (open_fails f _ _ _ Eh).
  intros h ->. exact (short_header_fails B h s1 HB Eh).
Qed.

Theorem crash_read_short (B : bytes) : (length B < 100)%nat ->
  exists r s', run r_new (src_of B) = (r, s') /\ (forall st, r <> Ok st).
Proof. exact (short_open (fun h => mkr h None 100 0) B). Qed.
