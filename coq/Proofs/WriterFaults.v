(** C12: destination failures.  Running the operations of a writer call on
    destinations with any fault plan applies exactly a prefix of them
    ([is_prefix], which is also the notion of cut of the crash states of C11)
    and returns Ok (all applied) or the injected error.  A finalize cut short
    at any operation has touched nothing beyond the header slots ([WBuf]), so
    once the destinations work the writer is ready for any call.  Last,
    [write_all_loop]: std's `write_all` on short writes. *)
From SF Require Import Model.Bytes Model.Shapes Model.Res Model.Encode Model.Writer.
From SF Require Import Proofs.BytesLemmas Proofs.HeaderMix Proofs.WriterCore Proofs.WriterInv.
Open Scope Z_scope.

(** All that is asked of a world whose destinations may have fault plans
    ([world_wf] asks for no plan as well). *)
Definition dev_pos_ok (d : wdev) : Prop := 0 <= d_pos d.
Definition world_pos_ok (w : world) : Prop := dev_pos_ok (w_shp w) /\ dev_pos_ok (w_shx w).

Theorem run_ops_prefix : forall ops w, world_pos_ok w -> Forall (fun o => op_wf (snd o)) ops ->
  exists pre post r w', ops = pre ++ post /\ run_ops ops w = (r, w') /\ world_pos_ok w' /\
    bp_of (w_shp w') = bp_ops (ops_of Shp pre) (bp_of (w_shp w)) /\
    bp_of (w_shx w') = bp_ops (ops_of Shx pre) (bp_of (w_shx w)) /\
    ((r = Ok tt /\ post = []) \/ (r = Err EIoInjected /\ post <> [])).
Proof.
  intros ops w Hw Hops.
  destruct (run_ops_spec ops w (proj1 (both_dev dev_pos_ok w) Hw) Hops) as (pre & post & r & w' & Eo & R & Hd & Hcase).
  exists pre, post, r, w'. split; [exact Eo|]. split; [exact R|]. split; [apply (both_dev dev_pos_ok); intros t; apply Hd|].
  split; [exact (advances_bp _ _ _ (proj2 (Hd Shp)))|]. split; [exact (advances_bp _ _ _ (proj2 (Hd Shx)))|]. destruct Hcase as [(-> & -> & _)|(-> & Hne & _)]; auto.
Qed.

Corollary run_ops_outcome ops w : world_pos_ok w -> Forall (fun o => op_wf (snd o)) ops ->
  fst (run_ops ops w) = Ok tt \/ fst (run_ops ops w) = Err EIoInjected.
Proof.
  intros Hw Ho. destruct (run_ops_prefix ops w Hw Ho) as (pre & post & r & w' & _ & R & _ & _ & _ & [[-> _]|[-> _]]);
    rewrite R; auto.
Qed.

(** The header slot when a write may have been cut short: at most 100 bytes,
    fewer only while nothing follows.  [hdr_slot] (WriterInv.v) is this without
    the partly written slot ([hdr_slot_slot'], CrashStates.v). *)
Definition slot (H R : bytes) : Prop := (R = [] /\ (length H <= 100)%nat) \/ length H = 100%nat.

Lemma slot_skipn H R : slot H R -> skipn 100 (H ++ R) = R.
Proof.
  intros [[-> Hl]|Hl]; [rewrite app_nil_r; apply skipn_all2, Hl|].
  rewrite skipn_app, skipn_all2, Hl by lia. reflexivity.
Qed.

Lemma skipn_slot buf : exists H, buf = H ++ skipn 100 buf /\ slot H (skipn 100 buf).
Proof.
  exists (firstn 100 buf). split; [symmetry; apply firstn_skipn|]. unfold slot. rewrite firstn_length.
  destruct (Nat.le_gt_cases 100 (length buf)); [right; lia|left; split; [apply skipn_all2|]; lia].
Qed.

Inductive is_prefix {A} : list A -> list A -> Prop :=
| prefix_nil l : is_prefix [] l
| prefix_cons x p l : is_prefix p l -> is_prefix (x :: p) (x :: l).

Lemma is_prefix_app {A} (p q : list A) : is_prefix p (p ++ q).
Proof. induction p; cbn; constructor; assumption. Qed.

Lemma is_prefix_app_cases {A} (p a b : list A) : is_prefix p (a ++ b) ->
  is_prefix p a \/ exists q, p = a ++ q /\ is_prefix q b.
Proof.
  revert p; induction a as [|x a IH]; intros p Hp; cbn [app] in Hp.
  - right. exists p. split; [reflexivity|exact Hp].
  - inversion Hp as [|y p' l Hp']; subst; [left; constructor|].
    destruct (IH p' Hp') as [H|(q & -> & Hq)]; [left; constructor; exact H|right; exists q; split; [reflexivity|exact Hq]].
Qed.

Lemma is_prefix_map {A B} (f : A -> B) p l : is_prefix p (map f l) -> exists j, p = map f (firstn j l).
Proof.
  revert p; induction l as [|x l IH]; intros p Hp; cbn [map] in Hp; inversion Hp as [|y p' l' Hp']; subst;
    try (exists 0%nat; reflexivity).
  destruct (IH p' Hp') as (j & ->). exists (S j). reflexivity.
Qed.

Lemma prefix_of_nil {A} (p : list A) : is_prefix p [] -> p = [].
Proof. inversion 1; reflexivity. Qed.

Lemma is_prefix_antisym {A} (a b : list A) : is_prefix a b -> is_prefix b a -> a = b.
Proof.
  intros H; induction H as [l|x p l H IH]; intros Hb.
  - inversion Hb; reflexivity.
  - inversion Hb; subst. f_equal. apply IH. assumption.
Qed.

Lemma writes_cut cs p (buf : bytes) pos : (pos <= length buf)%nat -> is_prefix p (map WriteAll cs) ->
  exists k, (k <= length (concat cs))%nat /\
            bp_ops p (buf, pos) = (write_at buf pos (firstn k (concat cs)), (pos + k)%nat).
Proof.
  intros Hpos Hp. destruct (is_prefix_map _ _ _ Hp) as (j & ->). exists (length (concat (firstn j cs))). split.
  - rewrite <- (firstn_skipn j cs) at 2. rewrite concat_app, app_length. lia.
  - rewrite bp_write_chunks by exact Hpos. rewrite concat_firstn at 1. reflexivity.
Qed.

Lemma header_rewrite_cut cs tail p (x : bp) :
  is_prefix p (WSeekStart 0 :: map WriteAll cs ++ tail) ->
  (exists i, (i <= length (concat cs))%nat /\ fst (bp_ops p x) = mixb i (concat cs) (fst x)) \/
  (exists q, is_prefix q tail /\
             bp_ops p x = bp_ops q (mixb (length (concat cs)) (concat cs) (fst x), length (concat cs))).
Proof.
  intros Hp. inversion Hp as [|o p' l Hp']; subst; [left; exists 0%nat; split; [lia|reflexivity]|].
  destruct x as [buf pos]. change (bp_ops (WSeekStart 0 :: p') (buf, pos)) with (bp_ops p' (buf, 0%nat)).
  destruct (is_prefix_app_cases p' _ _ Hp') as [Hh|(q & -> & Hq)].
  - destruct (writes_cut cs p' buf 0 ltac:(lia) Hh) as (k & Hk & E). left. exists k. split; [exact Hk|]. rewrite E.
    cbn [fst]. rewrite write_at_0, firstn_length, Nat.min_l by exact Hk. reflexivity.
  - rewrite bp_ops_app, bp_write_chunks, write_at_0 by lia. right. exists q. split; [exact Hq|].
    unfold mixb. rewrite firstn_all. reflexivity.
Qed.

Lemma header_rewrite_mix cs p (x : bp) :
  is_prefix p (WSeekStart 0 :: map WriteAll cs ++ [WSeekEnd; WFlush]) ->
  exists i, (i <= length (concat cs))%nat /\ fst (bp_ops p x) = mixb i (concat cs) (fst x).
Proof.
  intros Hp. destruct (header_rewrite_cut _ _ _ x Hp) as [G|(q & Hq & E)]; [exact G|].
  exists (length (concat cs)). split; [apply Nat.le_refl|]. rewrite E.
  (* the tail is a seek to the end and a flush: no cut of it touches the buffer *)
  inversion Hq as [|o1 q1 l1 Hq1]; subst; [reflexivity|]. inversion Hq1 as [|o2 q2 l2 Hq2]; subst; [reflexivity|].
  inversion Hq2; subst. reflexivity.
Qed.

Lemma header_rewrite_keeps cs p (x : bp) : length (concat cs) = 100%nat ->
  is_prefix p (WSeekStart 0 :: map WriteAll cs ++ [WSeekEnd; WFlush]) -> skipn 100 (fst (bp_ops p x)) = skipn 100 (fst x).
Proof. intros Hl Hp. destruct (header_rewrite_mix cs p x Hp) as (i & Hi & ->). apply skipn_mixb; lia. Qed.

(** What is left of [WInv] when operations may have been refused: the fields of
    the state, and in each destination in use the stream behind a header slot
    in any state of rewriting - not what the slot holds, not where the
    destination is positioned, not whether it has a fault plan. *)
Record WBuf (hs : bool) (st : wstate) (w : world) (ss : list shape) : Prop := mkWBuf {
  wb_pos : world_pos_ok w;
  wb_hdr : ws_hdr st = hdr_after ss;
  wb_rec : ws_recnum st = 1 + zlen ss;
  wb_hs : ws_has_shx st = hs;
  wb_shp : exists H, d_buf (w_shp w) = H ++ records_from 1 ss /\ slot H (records_from 1 ss);
  wb_shx : if hs then exists H, d_buf (w_shx w) = H ++ index_from 50 ss /\ slot H (index_from 50 ss)
           else bp_of (w_shx w) = ([], 0%nat)
}.

Lemma WBuf_dev hs st w ss t : WBuf hs st w ss -> dest_on hs t = true -> skipn 100 (d_buf (get_dev w t)) = stream t ss.
Proof.
  intros Hb Ht. assert (G : exists H, d_buf (get_dev w t) = H ++ stream t ss /\ slot H (stream t ss)).
  { destruct t; [apply Hb|]. cbn [dest_on] in Ht. subst hs. exact (wb_shx _ _ _ _ Hb). }
  destruct G as (H & -> & Hs). apply slot_skipn, Hs.
Qed.

Lemma WBuf_intro hs st w ss :
  world_pos_ok w -> ws_hdr st = hdr_after ss -> ws_recnum st = 1 + zlen ss -> ws_has_shx st = hs ->
  (forall t, dest_on hs t = true -> skipn 100 (d_buf (get_dev w t)) = stream t ss) ->
  (hs = false -> bp_of (w_shx w) = ([], 0%nat)) -> WBuf hs st w ss.
Proof.
  intros Hp Hh Hr Hhs Hd Hx.
  assert (G : forall t, dest_on hs t = true -> exists H, d_buf (get_dev w t) = H ++ stream t ss /\ slot H (stream t ss)).
  { intros t Ht. rewrite <- (Hd t Ht). apply skipn_slot. }
  constructor; try assumption; [exact (G Shp eq_refl)|]. destruct hs; [exact (G Shx eq_refl)|exact (Hx eq_refl)].
Qed.

Lemma Ready_WBuf hs st w ss : Ready hs st w ss -> WBuf hs st w ss.
Proof.
  intros [Hwf Hh Hr Hhs Hdev Hnox]. apply WBuf_intro; try assumption; [|intros t Ht; apply Hdev, Ht].
  apply (both_dev dev_pos_ok). intros t. apply (proj1 (both_dev dev_wf w) Hwf t).
Qed.

Lemma WBuf_Ready hs st w ss : WBuf hs st w ss -> world_wf w -> ws_interrupted st = true -> Ready hs st w ss.
Proof.
  intros Hb Hwf Hi. pose proof Hb as [_ Hh Hr Hhs _ Hx]. constructor; try assumption.
  - intros t Ht. split; [exact (WBuf_dev hs st w ss t Hb Ht)|rewrite Hi; discriminate].
  - intros ->. exact Hx.
Qed.

Lemma WInv_WBuf hs st w ss : WInv hs st w ss -> WBuf hs st w ss.
Proof. intros Inv. apply Ready_WBuf, WInv_Ready, Inv. Qed.

Definition arm_dev (d : wdev) (f : option (nat * bool)) : wdev :=
  mkwdev (d_buf d) (d_pos d) (d_ops d) f (d_flushed d) (d_log d).
Definition arm (w : world) (f1 f2 : option (nat * bool)) : world := mkworld (arm_dev (w_shp w) f1) (arm_dev (w_shx w) f2).

Lemma arm_WBuf hs st w ss f1 f2 : WBuf hs st w ss -> WBuf hs st (arm w f1 f2) ss.
Proof. intros [Hp Hh Hr Hhs Hs Hx]. constructor; auto. Qed.

Lemma set_interrupted_WBuf hs st w ss b : WBuf hs st w ss -> WBuf hs (set_interrupted st b) w ss.
Proof. intros [Hp Hh Hr Hhs Hs Hx]. constructor; assumption. Qed.

Lemma heal_WBuf hs st w ss : WBuf hs st w ss -> WBuf hs st (heal w) ss.
Proof. intros [Hp Hh Hr Hhs Hs Hx]. constructor; auto. Qed.

Lemma heal_wf w : world_pos_ok w -> world_wf (heal w).
Proof. intros [Hp1 Hp2]. split; split; [reflexivity|exact Hp1|reflexivity|exact Hp2]. Qed.

Theorem finalize_any hs st w ss : WBuf hs st w ss -> ws_dirty st = true ->
  exists r st1 w1, w_finalize st w = (r, st1, w1) /\
    ((r = Ok tt /\ ws_dirty st1 = false /\ d_buf (w_shp w1) = final_shp ss /\
      d_buf (w_shx w1) = (if hs then final_shx ss else [])) \/
     (r = Err EIoInjected /\ st1 = set_interrupted st true /\ WBuf hs st1 w1 ss)).
Proof.
  intros Hb Hd. pose proof Hb as [Hpos Hh Hr Hhs _ Hx]. unfold w_finalize. rewrite Hd. cbn [negb].
  destruct (run_ops_spec (finalize_ops st) w (proj1 (both_dev dev_pos_ok w) Hpos) (finalize_ops_wf st))
    as (pre & post & r & w1 & Eo & R & Hd1 & Hcase). rewrite R.
  (* each destination has received a prefix of its [fin_ops] *)
  assert (P : forall t, is_prefix (ops_of t pre) (if dest_on hs t then fin_ops (final_hdr_at t ss) else [])).
  { intros t. rewrite <- (finalize_ops_of t hs st ss Hh Hr Hhs), Eo, ops_of_app. apply is_prefix_app. }
  assert (K : forall t, dest_on hs t = true -> skipn 100 (d_buf (get_dev w1 t)) = stream t ss).
  { intros t Ht. pose proof (advances_bp _ _ _ (proj2 (Hd1 t))) as B. specialize (P t). rewrite Ht in P.
    change (d_buf (get_dev w1 t)) with (fst (bp_of (get_dev w1 t))). rewrite B, (header_rewrite_keeps _ _ _ (header_bytes_len _) P).
    exact (WBuf_dev hs st w ss t Hb Ht). }
  assert (K0 : hs = false -> bp_of (w_shx w1) = ([], 0%nat)).
  { intros ->. pose proof (advances_bp _ _ _ (proj2 (Hd1 Shx))) as B. rewrite (prefix_of_nil _ (P Shx)) in B. exact (eq_trans B Hx). }
  destruct Hcase as [(-> & -> & _)|(-> & Hne & _)].
  - exists (Ok tt). do 2 eexists. split; [reflexivity|]. left. split; [reflexivity|]. split; [reflexivity|].
    rewrite app_nil_r in Eo. subst pre.
    assert (F : forall t, dest_on hs t = true -> d_buf (get_dev w1 t) = header_bytes (final_hdr_at t ss) ++ stream t ss).
    { intros t Ht. pose proof (advances_bp _ _ _ (proj2 (Hd1 t))) as B. rewrite (finalize_ops_of t hs st ss Hh Hr Hhs), Ht in B.
      change (d_buf (get_dev w1 t)) with (fst (bp_of (get_dev w1 t))). rewrite B.
      destruct (bp_fin_ops (final_hdr_at t ss) (bp_of (get_dev w t))) as [E _]. rewrite E. f_equal.
      exact (WBuf_dev hs st w ss t Hb Ht). }
    split; [exact (F Shp eq_refl)|]. destruct hs; [exact (F Shx eq_refl)|exact (f_equal fst (K0 eq_refl))].
  - exists (Err EIoInjected), (set_interrupted st true), w1. split; [reflexivity|]. right. split; [reflexivity|].
    split; [reflexivity|]. apply set_interrupted_WBuf, WBuf_intro; try assumption.
    apply (both_dev dev_pos_ok). intros t. apply Hd1.
Qed.

Lemma failed_finalize_ready hs st w ss : WBuf hs st w ss -> ws_dirty st = true ->
  forall st1 w1, w_finalize st w = (Err EIoInjected, st1, w1) -> Ready hs st1 (heal w1) ss /\ ws_dirty st1 = true.
Proof.
  intros Hb Hd st1 w1 E.
  destruct (finalize_any hs st w ss Hb Hd) as (r & st1' & w1' & E' & Hcase). rewrite E in E'. injection E' as <- <- <-.
  destruct Hcase as [[Hr _]|(_ & -> & Hb1)]; [discriminate|]. split; [|exact Hd].
  apply WBuf_Ready; [apply heal_WBuf, Hb1|apply heal_wf, Hb1|reflexivity].
Qed.

(** Short writes: the pieces std's `write_all` loop hands to a destination that
    accepts at most c_i >= 1 bytes on its i-th `write` call (C12_chunking: they
    concatenate to the bytes). *)
Fixpoint write_all_loop (fuel : nat) (bs : bytes) (sched : list nat) : option (list bytes) :=
  match bs with
  | [] => Some []
  | _ =>
    match fuel with
    | O => None
    | S fuel' =>
        let c := match sched with [] => length bs | c0 :: _ => Nat.min (Nat.max c0 1) (length bs) end in
        match write_all_loop fuel' (skipn c bs) (tl sched) with
        | Some pieces => Some (firstn c bs :: pieces)
        | None => None
        end
    end
  end.
