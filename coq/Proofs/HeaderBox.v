(** C05, file-header half: after finalize the header box holds, in every
    dimension the file's type carries, the extreme values over the ranges of
    all written shapes, and 0 in the dimensions it does not carry. *)
From SF Require Import Model.Bytes Model.F64 Model.ShapeType Model.Shapes Model.Encode Model.Writer Spec.Esri.
From SF Require Import Proofs.F64Order Proofs.BoxExact Proofs.WriterInv.
Open Scope Z_scope.

Definition range (c : coord) (s : shape) : f64 * f64 :=
  match c with CX => x_range s | CY => y_range s | CZ => z_range s | CM => m_range s end.
Definition carried (t : shape_type) (c : coord) : bool :=
  match c with CX | CY => true | CZ => st_has_z t | CM => st_has_m t end.

Lemma grow_from_shape_coord b s c :
  get c (bmin (grow_from_shape b s))
    = (if carried (type_of s) c then f64_min (fst (range c s)) (get c (bmin b)) else get c (bmin b)) /\
  get c (bmax (grow_from_shape b s))
    = (if carried (type_of s) c then f64_max (snd (range c s)) (get c (bmax b)) else get c (bmax b)).
Proof.
  unfold grow_from_shape. destruct c; cbn [get bmin bmax px py pz pm carried range]; split; try reflexivity.
Qed.

Lemma fold_grow_coord t c : forall ss b, Forall (fun s => type_of s = t) ss ->
  get c (bmin (fold_left grow_from_shape ss b))
    = (if carried t c then fold_left (fun acc x => f64_min x acc) (map (fun s => fst (range c s)) ss) (get c (bmin b))
       else get c (bmin b)) /\
  get c (bmax (fold_left grow_from_shape ss b))
    = (if carried t c then fold_left (fun acc x => f64_max x acc) (map (fun s => snd (range c s)) ss) (get c (bmax b))
       else get c (bmax b)).
Proof.
  induction ss as [|s r IH]; intros b Ht; cbn [fold_left map].
  - destruct (carried t c); split; reflexivity.
  - inversion Ht as [|? ? Hs Hr]; subst. destruct (IH (grow_from_shape b s) Hr) as [E1 E2]. rewrite E1, E2.
    destruct (grow_from_shape_coord b s c) as [G1 G2]. rewrite G1, G2.
    destruct (carried (type_of s) c); split; reflexivity.
Qed.

Lemma fold_hdr_step_box ss : forall h, h_box (fold_left hdr_step ss h) = fold_left grow_from_shape ss (h_box h).
Proof. induction ss as [|s r IH]; intros h; cbn [fold_left]; [reflexivity|]. rewrite IH. reflexivity. Qed.

Lemma hdr_after_box s0 r : h_box (hdr_after (s0 :: r)) = fold_left grow_from_shape (s0 :: r) sentinel_box.
Proof. unfold hdr_after. rewrite fold_hdr_step_box. reflexivity. Qed.

Lemma sentinel_box_coord c : get c (bmin sentinel_box) = F_INF /\ get c (bmax sentinel_box) = F_NEG_INF.
Proof. destruct c; split; reflexivity. Qed.

Lemma nn_inf : nn F_INF. Proof. reflexivity. Qed.
Lemma nn_neg_inf : nn F_NEG_INF. Proof. reflexivity. Qed.
Lemma key_inf : f64_key F_INF = 9218868437227405312. Proof. reflexivity. Qed.
Lemma key_neg_inf : f64_key F_NEG_INF = -9218868437227405312. Proof. reflexivity. Qed.

(* The numerals are [two63] (the sign bit) and [exp_ones] (the pattern of +inf, above which a magnitude is a NaN),
   written out for [lia]. *)
Lemma key_cases m : f64_ok m ->
  exists s g, m = 9223372036854775808 * s + g /\ 0 <= g < 9223372036854775808 /\ (s = 0 \/ s = 1) /\
              f64_key m = (if s =? 0 then g else - g) /\ f64_is_nan m = (9218868437227405312 <? g).
Proof.
  intros [H0 H1]. exists (m / 9223372036854775808), (m mod 9223372036854775808).
  pose proof (Z.div_mod m 9223372036854775808 ltac:(lia)) as Hd.
  pose proof (Z.mod_pos_bound m 9223372036854775808 ltac:(lia)) as Hm.
  split; [exact Hd|]. split; [exact Hm|]. split.
  - assert (0 <= m / 9223372036854775808 < 2); [|lia]. split; [apply Z.div_pos; lia|].
    apply Z.div_lt_upper_bound; [lia|]. unfold two64 in H1. lia.
  - split; reflexivity.
Qed.

Lemma key_bounds m : f64_ok m -> nn m -> -9218868437227405312 <= f64_key m <= 9218868437227405312.
Proof.
  intros H N. destruct (key_cases m H) as (s & g & Hm & Hg & Hs & Hk & Hn). unfold nn in N. rewrite Hn in N.
  apply Z.ltb_ge in N. rewrite Hk. destruct Hs as [-> | ->]; cbn; lia.
Qed.

(** Apart from the two zeros, a pattern is determined by its key. *)
Lemma key_inj a b : f64_ok a -> f64_ok b -> f64_key a = f64_key b -> f64_key a <> 0 -> a = b.
Proof.
  intros Ha Hb. destruct (key_cases a Ha) as (s & g & Ea & Hg & Hs & -> & _).
  destruct (key_cases b Hb) as (s' & g' & Eb & Hg' & Hs' & -> & _). subst a b. clear Ha Hb.
  destruct Hs as [-> | ->], Hs' as [-> | ->]; cbn [Z.eqb]; lia.
Qed.

Lemma le_inf_eq m : f64_ok m -> nn m -> f64_le F_INF m = true -> m = F_INF.
Proof.
  intros H N L. apply f64_le_key in L. pose proof (key_bounds m H N) as B. rewrite key_inf in L.
  apply key_inj; [exact H|cbv; split; [discriminate|reflexivity]|rewrite key_inf; lia|lia].
Qed.

Lemma ge_neg_inf_eq m : f64_ok m -> nn m -> f64_ge F_NEG_INF m = true -> m = F_NEG_INF.
Proof.
  intros H N L. apply f64_le_key in L. pose proof (key_bounds m H N) as B. rewrite key_neg_inf in L.
  apply key_inj; [exact H|cbv; split; [discriminate|reflexivity]|rewrite key_neg_inf; lia|lia].
Qed.

Lemma fold_pick_from_top le f top :
  (forall a, nn a -> le a a = true) -> (forall a b c, le a b = true -> le b c = true -> le a c = true) ->
  pick_like le f -> nn top -> (forall m, f64_ok m -> nn m -> le top m = true -> m = top) ->
  forall l, l <> [] -> Forall (fun m => nn m /\ f64_ok m) l -> extreme_of le (fold_left f l top) l.
Proof.
  intros Hrefl Htrans Hf Nt Htop l Hne Hl.
  destruct (fold_pick_like le Hrefl Htrans f Hf l top Nt) as (Hin & Hall);
    [eapply Forall_impl; [|exact Hl]; intros m H; apply H|].
  inversion Hall as [|? ? _ Hall']; subst. split; [|exact Hall'].
  destruct Hin as [E|Hin]; [|exact Hin].
  (* the fold returned the sentinel: then the head of the list is the sentinel *)
  destruct l as [|x l']; [contradiction|]. left.
  inversion Hall' as [|? ? Hx _]; inversion Hl as [|? ? [Nx Ox] _]; subst.
  rewrite <- E in Hx |- *. apply Htop; assumption.
Qed.

(** `finalize`'s test for a Z or M range that no shape has grown: both ends are
    still the sentinels the first write installed (src/writer.rs, `finalize`). *)
Definition untouched (lo hi : f64) : bool := f64_eq hi F_NEG_INF && f64_eq lo F_INF.

Lemma subst_sentinels_coord b c :
  get c (bmin (subst_sentinels b))
    = match c with
      | CX | CY => get c (bmin b)
      | _ => if untouched (get c (bmin b)) (get c (bmax b)) then 0 else get c (bmin b)
      end /\
  get c (bmax (subst_sentinels b))
    = match c with
      | CX | CY => get c (bmax b)
      | _ => if untouched (get c (bmin b)) (get c (bmax b)) then 0 else get c (bmax b)
      end.
Proof. unfold subst_sentinels, untouched. destruct c; cbn [get bmin bmax px py pz pm]; split; reflexivity. Qed.

Lemma untouched_sentinels : untouched F_INF F_NEG_INF = true.
Proof. reflexivity. Qed.

Lemma not_untouched lo hi : f64_le lo hi = true -> untouched lo hi = false.
Proof.
  intros H. apply f64_le_key in H. unfold untouched.
  destruct (f64_eq hi F_NEG_INF) eqn:E1; [|reflexivity]. destruct (f64_eq lo F_INF) eqn:E2; [|reflexivity].
  apply f64_eq_key in E1, E2. rewrite key_neg_inf in E1. rewrite key_inf in E2. lia.
Qed.

(** The final header box in a carried dimension: the two folds from the
    sentinels, once some shape has moved them past each other. *)
Lemma final_box_coord ss t c :
  ss <> [] -> Forall (fun s => type_of s = t) ss -> carried t c = true ->
  let lo := fold_left (fun acc x => f64_min x acc) (map (fun s => fst (range c s)) ss) F_INF in
  let hi := fold_left (fun acc x => f64_max x acc) (map (fun s => snd (range c s)) ss) F_NEG_INF in
  f64_le lo hi = true ->
  get c (bmin (h_box (final_hdr ss))) = lo /\ get c (bmax (h_box (final_hdr ss))) = hi.
Proof.
  intros Hne Hty Hc lo hi Hord. unfold final_hdr. cbn [set_box h_box].
  destruct ss as [|s0 r]; [contradiction|]. rewrite hdr_after_box.
  destruct (fold_grow_coord t c (s0 :: r) sentinel_box Hty) as [E1 E2]. rewrite Hc in E1, E2.
  destruct (sentinel_box_coord c) as [S1 S2]. rewrite S1 in E1. rewrite S2 in E2. fold lo in E1. fold hi in E2.
  destruct (subst_sentinels_coord (fold_left grow_from_shape (s0 :: r) sentinel_box) c) as [T1 T2].
  rewrite T1, T2, E1, E2, (not_untouched _ _ Hord). destruct c; split; reflexivity.
Qed.

(** The guard of the header-box theorem.  [f64_le] holding makes both ends
    non-NaN ([f64_le_nn]). *)
Definition range_good (c : coord) (s : shape) : Prop :=
  f64_ok (fst (range c s)) /\ f64_ok (snd (range c s)) /\ f64_le (fst (range c s)) (snd (range c s)) = true.

Theorem header_box_carried ss t c :
  ss <> [] -> Forall (fun s => type_of s = t) ss -> carried t c = true -> Forall (range_good c) ss ->
  let hb := h_box (final_hdr ss) in
  extreme_of f64_le (get c (bmin hb)) (map (fun s => fst (range c s)) ss) /\
  extreme_of f64_ge (get c (bmax hb)) (map (fun s => snd (range c s)) ss).
Proof.
  intros Hne Hty Hc Hg. cbv zeta.
  assert (Hlo : Forall (fun m => nn m /\ f64_ok m) (map (fun s => fst (range c s)) ss)).
  { apply Forall_map. eapply Forall_impl; [|exact Hg]. intros s (A & _ & L). split; [apply (f64_le_nn _ _ L)|exact A]. }
  assert (Hhi : Forall (fun m => nn m /\ f64_ok m) (map (fun s => snd (range c s)) ss)).
  { apply Forall_map. eapply Forall_impl; [|exact Hg]. intros s (_ & B & L). split; [apply (f64_le_nn _ _ L)|exact B]. }
  assert (Hne' : forall g : shape -> f64, map g ss <> []) by (intros g E; apply map_eq_nil in E; exact (Hne E)).
  destruct (fold_pick_from_top f64_le _ F_INF f64_le_refl f64_le_trans (pick_like_flip _ _ pick_like_min) nn_inf le_inf_eq
              _ (Hne' _) Hlo) as [I1 A1].
  destruct (fold_pick_from_top f64_ge _ F_NEG_INF f64_le_refl f64_ge_trans (pick_like_flip _ _ pick_like_max) nn_neg_inf ge_neg_inf_eq
              _ (Hne' _) Hhi) as [I2 A2].
  destruct (final_box_coord ss t c Hne Hty Hc) as [-> ->]; [|split; split; assumption].
  (* min <= min of the first shape <= max of the first shape <= max: the range was touched *)
  destruct ss as [|s0 r]; [contradiction|]. cbn [map] in A1, A2.
  inversion A1 as [|? ? a1 _]; inversion A2 as [|? ? a2 _]; inversion Hg as [|? ? (_ & _ & L) _]; subst.
  eapply f64_le_trans; [exact a1|]. eapply f64_le_trans; [exact L|exact a2].
Qed.

Theorem header_box_absent ss t c :
  Forall (fun s => type_of s = t) ss -> carried t c = false ->
  let hb := h_box (final_hdr ss) in get c (bmin hb) = 0 /\ get c (bmax hb) = 0.
Proof.
  intros Hty Hc. cbv zeta. unfold final_hdr. cbn [set_box h_box].
  destruct (subst_sentinels_coord (h_box (hdr_after ss)) c) as [-> ->].
  assert (Hzm : c = CZ \/ c = CM) by (destruct c; try discriminate Hc; auto).
  destruct ss as [|s0 r].
  - (* no shape was written: the box of the default header is +0.0 throughout *)
    destruct Hzm as [-> | ->]; cbn [hdr_after header_default h_box get bmin bmax pz pm]; destruct (untouched 0 0); split; reflexivity.
  - (* nothing grew this dimension: finalize finds the sentinels *)
    rewrite hdr_after_box. destruct (fold_grow_coord t c (s0 :: r) sentinel_box Hty) as [-> ->]. rewrite Hc.
    destruct (sentinel_box_coord c) as [-> ->]. rewrite untouched_sentinels. destruct Hzm as [-> | ->]; split; reflexivity.
Qed.
