(** L1, part 2: boxes and ranges, the optional M block and the record size,
    multipoints. *)
From SF Require Import Model.Bytes Model.F64 Model.ShapeType Model.Shapes Model.Prog Model.Decode Spec.Esri
  Spec.Denote.
From SF Require Import Proofs.BytesLemmas Proofs.ProgLemmas Proofs.DecodePrims.
Open Scope Z_scope.

Ltac app_norm := repeat rewrite <- app_assoc; cbn [app].
Ltac zlen_norm :=
  rewrite ?zlen_app, ?zlen_f64s, ?zlen_i32s, ?zlen_xys, ?zlen_i32_le, ?zlen_f64_enc, ?zlen_cons, ?zlen_map.

(** One step of a reading chain; [rlast] for the step that reads the last bytes. *)
Ltac rstep lem := eapply reads_bind; [apply lem; auto|]; cbn [fst snd].
Ltac rlast lem := eapply reads_bind_last; [apply lem; auto|]; cbn [fst snd].

(** Lengths of vertex lists with attributes attached. *)
Ltac len := unfold zlen in *; rewrite ?zipw_length, ?map_length; lia.

Lemma reads_bbox_xy d a b c e :
  f64_ok a -> f64_ok b -> f64_ok c -> f64_ok e ->
  reads (read_bbox_xy d) (f64s [a; b; c; e]) (mkbox (pt_xy d a b) (pt_xy d c e)).
Proof.
  intros. unfold read_bbox_xy, f64s. cbn [flat_map]. do 4 rstep reads_f64. apply reads_ret.
Qed.

Lemma reads_z_range b lo hi :
  f64_ok lo -> f64_ok hi ->
  reads (read_z_range b) (f64s [lo; hi]) (mkbox (set_z (bmin b) lo) (set_z (bmax b) hi)).
Proof. intros. unfold read_z_range, f64s. cbn [flat_map]. do 2 rstep reads_f64. apply reads_ret. Qed.

Lemma reads_m_range b lo hi :
  f64_ok lo -> f64_ok hi ->
  reads (read_m_range b) (f64s [lo; hi]) (mkbox (set_m (bmin b) lo) (set_m (bmax b) hi)).
Proof. intros. unfold read_m_range, f64s. cbn [flat_map]. do 2 rstep reads_f64. apply reads_ret. Qed.

Lemma reads_z_block b ps lo hi zs :
  f64_ok lo -> f64_ok hi -> length ps = length zs -> Forall f64_ok zs ->
  reads (b' <-- read_z_range b ;; ps' <-- read_zs_into ps ;; Ret (b', ps'))
        (f64s [lo; hi] ++ f64s zs)
        (mkbox (set_z (bmin b) lo) (set_z (bmax b) hi), zipw set_z ps zs).
Proof. intros. rstep reads_z_range. rlast reads_zs_into. apply reads_ret. Qed.

Lemma reads_m_block b ps lo hi ms :
  f64_ok lo -> f64_ok hi -> length ps = length ms -> Forall f64_ok ms ->
  reads (b' <-- read_m_range b ;; ps' <-- read_ms_into ps ;; Ret (b', ps'))
        (f64s [lo; hi] ++ f64s ms)
        (mkbox (set_m (bmin b) lo) (set_m (bmax b) hi), zipw set_m_norm ps ms).
Proof. intros. rstep reads_m_range. rlast reads_ms_into. apply reads_ret. Qed.

(** The decoders tell from the declared size whether the optional M block is there. *)
Lemma record_size_is_refl n : 0 <= n -> record_size_is n n = true.
Proof. intros H; unfold record_size_is. rewrite Z.eqb_refl. destruct (Z.leb_spec 0 n); [reflexivity|lia]. Qed.

Lemma record_size_is_neq n m : n <> m -> record_size_is n m = false.
Proof. intros H; unfold record_size_is. destruct (Z.eqb_spec n m); [contradiction|]. apply andb_false_r. Qed.

(** [sz w]: the size of the record with ([w = true]) and without the M block. *)
Lemma size_flags (sz : bool -> Z) w : (forall w, 0 <= sz w) -> sz true <> sz false ->
  record_size_is (sz w) (sz true) = w /\ record_size_is (sz w) (sz false) = negb w.
Proof.
  intros Hnn Hne. destruct w; rewrite record_size_is_refl by apply Hnn;
    rewrite record_size_is_neq by congruence; split; reflexivity.
Qed.

Lemma st_has_z_dim t : st_has_z t = has_z_dim (dim_of_type t).
Proof. destruct t; reflexivity. Qed.

Lemma layout_has_m_dim t : layout_has_m t = has_m_dim (dim_of_type t).
Proof. destruct t; reflexivity. Qed.

Definition present {A} (o : option A) : bool := match o with Some _ => true | None => false end.

Lemma zlen_z_block d (pts : list (f64 * f64)) zlo zhi zs :
  (if has_z_dim d then length zs = length pts /\ f64_ok zlo /\ f64_ok zhi /\ Forall f64_ok zs
   else (zlo, zhi, zs) = (0, 0, [])) ->
  zlen (if has_z_dim d then f64s [zlo; zhi] ++ f64s zs else []) = if has_z_dim d then 16 + 8 * zlen pts else 0.
Proof. destruct (has_z_dim d); [intros (H & _); zlen_norm; unfold zlen; cbn [length]; lia|reflexivity]. Qed.

Lemma zlen_m_block d (pts : list (f64 * f64)) (m : option (f64 * f64 * list f64)) :
  (if has_m_dim d
   then match m with
        | Some (mr, ms) => length ms = length pts /\ f64_ok (fst mr) /\ f64_ok (snd mr) /\ Forall f64_ok ms
        | None => True
        end
   else m = None) ->
  zlen (if has_m_dim d then match m with Some (mr, ms) => f64s [fst mr; snd mr] ++ f64s ms | None => [] end else [])
  = if present m then 16 + 8 * zlen pts else 0.
Proof.
  destruct (has_m_dim d); [|intros ->; reflexivity].
  destruct m as [[mr ms]|]; [intros (H & _); zlen_norm; unfold zlen; cbn [present length]; lia|reflexivity].
Qed.

Lemma multipoint_flags d n w : has_m_dim d = true -> 0 <= n ->
  record_size_is (multipoint_size d n w) (multipoint_size d n true) = w /\
  record_size_is (multipoint_size d n w) (multipoint_size d n false) = negb w.
Proof.
  intros Hd Hn. apply size_flags; [intros []|]; unfold multipoint_size; destruct d; try discriminate Hd; lia.
Qed.

Lemma conformant_vertices t b : body_conformant t b ->
  vertices (dim_of_type t) (rb_pts b) (snd (rb_z b)) (match rb_m b with Some (_, ms) => Some ms | None => None end) =
  let ps := if has_z_dim (dim_of_type t) then zipw set_z (map (xy_pt (dim_of_type t)) (rb_pts b)) (snd (rb_z b))
            else map (xy_pt (dim_of_type t)) (rb_pts b) in
  match rb_m b with Some (_, ms) => zipw set_m_norm ps ms | None => ps end.
Proof.
  unfold body_conformant. rewrite st_has_z_dim, layout_has_m_dim.
  intros (_ & _ & _ & _ & _ & _ & Hz & Hm). cbn zeta.
  assert (Hzl : has_z_dim (dim_of_type t) = true -> length (snd (rb_z b)) = length (rb_pts b))
    by (destruct (has_z_dim _); [intros _; apply Hz|discriminate]).
  destruct (rb_m b) as [[mr ms]|]; [|apply vertices_none, Hzl].
  destruct (has_m_dim _) eqn:Em; [|discriminate Hm].
  rewrite vertices_some, vertices_none by (exact Em || apply Hm || exact Hzl). reflexivity.
Qed.

Lemma reads_multipoint_conf t b : is_multipoint_type t = true -> body_conformant t b ->
  reads (read_multipoint (dim_of_type t) (zlen (ref_body_bytes t b))) (ref_body_bytes t b)
        (SMultipoint (dim_of_type t) (denote_box (dim_of_type t) b)
           (vertices (dim_of_type t) (rb_pts b) (snd (rb_z b))
                     (match rb_m b with Some (_, ms) => Some ms | None => None end))).
Proof.
  intros Hmp Hconf. rewrite (conformant_vertices t b Hconf). revert Hconf.
  unfold body_conformant, ref_body_bytes. rewrite Hmp, st_has_z_dim, layout_has_m_dim.
  (* of the type, only the dimension is left *)
  generalize (dim_of_type t); intros d.
  destruct b as [[[[a b0] c] e] offs kinds pts [[zlo zhi] zs] m]; cbn [rb_box rb_pts rb_z rb_m fst snd].
  intros (Hn & _ & (Ha & Hb & Hc & He) & Hpts & _ & _ & Hz & Hm).
  pose proof (zlen_nonneg pts) as Hn0.
  apply (reads_size _ (multipoint_size d (zlen pts) (present m))).
  { zlen_norm. rewrite (zlen_z_block d pts), (zlen_m_block d pts) by assumption. unfold multipoint_size.
    destruct d, m; try discriminate Hm; cbn [has_z_dim present]; unfold zlen; cbn [length]; lia. }
  unfold read_multipoint. rstep reads_bbox_xy.
  rstep reads_i32_le; [unfold in_i32, two31 in *; lia|].
  (* after the points: the Z block if the dimension has one, the M block if the record has one *)
  destruct d; cbn [has_z_dim has_m_dim app bind fst snd] in Hz, Hm |- *.
  - subst m. rewrite (proj2 (Z.leb_le 0 _) Hn0), record_size_is_refl by (unfold multipoint_size; lia).
    rstep reads_xy_points. exact (reads_ret _).
  - rewrite (proj2 (Z.ltb_ge _ 0) Hn0).
    destruct (multipoint_flags XYM (zlen pts) (present m) eq_refl Hn0) as [-> ->]. rewrite andb_negb_r.
    rstep reads_xy_points.
    destruct m as [[[mlo mhi] ms]|]; [|exact (reads_ret _)].
    rlast reads_m_block; try apply Hm; [len|]. exact (reads_ret _).
  - rewrite (proj2 (Z.ltb_ge _ 0) Hn0).
    destruct (multipoint_flags XYZM (zlen pts) (present m) eq_refl Hn0) as [-> ->]. rewrite andb_negb_r.
    rstep reads_xy_points. rstep reads_z_block; try apply Hz; [len|].
    destruct m as [[[mlo mhi] ms]|]; [|exact (reads_ret _)].
    rlast reads_m_block; try apply Hm; [len|]. exact (reads_ret _).
Qed.
