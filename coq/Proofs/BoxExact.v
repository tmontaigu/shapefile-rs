(** C05, per-shape half: the box every public constructor of a multi-vertex
    shape computes (`from_points`, `from_parts`) has minima and maxima that are
    exactly the extreme values of the vertices, in every dimension the point
    type carries — provided no coordinate is NaN; and what each constructor
    returns when it succeeds. *)
From SF Require Import Model.Bytes Model.F64 Model.Shapes Model.Res Model.Construct.
From SF Require Import Proofs.F64Order.
Open Scope Z_scope.

Inductive coord := CX | CY | CZ | CM.
Definition get (c : coord) (p : pt) : f64 := match c with CX => px p | CY => py p | CZ => pz p | CM => pm p end.
Definition dim_has (d : dim) (c : coord) : bool :=
  match c with CX | CY => true | CZ => has_z_dim d | CM => has_m_dim d end.

Definition pts_nn (d : dim) (ps : list pt) : Prop :=
  Forall (fun p => forall c, dim_has d c = true -> nn (get c p)) ps.

Definition box_exact (d : dim) (b : bbox) (vs : list pt) : Prop :=
  forall c, dim_has d c = true ->
    In (get c (bmin b)) (map (get c) vs) /\ Forall (fun v => f64_le (get c (bmin b)) (get c v) = true) vs /\
    In (get c (bmax b)) (map (get c) vs) /\ Forall (fun v => f64_le (get c v) (get c (bmax b)) = true) vs.

Lemma get_shrink d c a o : dim_has d c = true -> get c (shrink d a o) = f64_min (get c a) (get c o).
Proof. destruct d, c; cbn; intros H; try discriminate; reflexivity. Qed.
Lemma get_grow d c a o : dim_has d c = true -> get c (grow d a o) = f64_max (get c a) (get c o).
Proof. destruct d, c; cbn; intros H; try discriminate; reflexivity. Qed.

Lemma box_grow_points_coord d c : dim_has d c = true -> forall ps b,
  get c (bmin (box_grow_points d b ps)) = fold_left f64_min (map (get c) ps) (get c (bmin b)) /\
  get c (bmax (box_grow_points d b ps)) = fold_left f64_max (map (get c) ps) (get c (bmax b)).
Proof.
  intros Hc. unfold box_grow_points. induction ps as [|p r IH]; intros b; cbn [fold_left map]; [split; reflexivity|].
  destruct (IH (mkbox (shrink d (bmin b) p) (grow d (bmax b) p))) as [H1 H2].
  rewrite H1, H2. cbn [bmin bmax]. rewrite get_shrink, get_grow by exact Hc. split; reflexivity.
Qed.

Lemma box_grow_points_app d b a r : box_grow_points d b (a ++ r) = box_grow_points d (box_grow_points d b a) r.
Proof. unfold box_grow_points. apply fold_left_app. Qed.

Lemma box_grow_exact d q0 rest : pts_nn d (q0 :: rest) ->
  box_exact d (box_grow_points d (mkbox q0 q0) rest) (q0 :: rest).
Proof.
  intros Hnn c Hc. destruct (box_grow_points_coord d c Hc rest (mkbox q0 q0)) as [-> ->]. cbn [bmin bmax].
  assert (N : Forall nn (map (get c) (q0 :: rest))).
  { apply Forall_map. eapply Forall_impl; [|exact Hnn]. intros p H. exact (H c Hc). }
  cbn [map] in N. inversion N as [|? ? N0 Nr]; subst.
  destruct (fold_pick_like f64_le f64_le_refl f64_le_trans f64_min pick_like_min _ _ N0 Nr) as [I1 A1].
  destruct (fold_pick_like f64_ge f64_le_refl f64_ge_trans f64_max pick_like_max _ _ N0 Nr) as [I2 A2].
  change (get c q0 :: map (get c) rest) with (map (get c) (q0 :: rest)) in *. rewrite Forall_map in A1, A2.
  split; [exact I1|]. split; [exact A1|]. split; [exact I2|exact A2].
Qed.

Lemma box_from_points_exact d ps b : box_from_points d ps = Ok b -> pts_nn d ps -> box_exact d b ps.
Proof.
  destruct ps as [|q0 rest]; cbn [box_from_points]; [discriminate|]. intros E Hnn. injection E as <-.
  apply box_grow_exact, Hnn.
Qed.

Lemma fold_grow_concat d : forall parts b, fold_left (box_grow_points d) parts b = box_grow_points d b (concat parts).
Proof.
  induction parts as [|p r IH]; intros b; cbn [fold_left concat]; [reflexivity|].
  rewrite IH, box_grow_points_app. reflexivity.
Qed.

Lemma box_from_parts_exact d parts b : box_from_parts d parts = Ok b -> pts_nn d (concat parts) -> box_exact d b (concat parts).
Proof.
  destruct parts as [|[|q0 r0] r]; cbn [box_from_parts box_from_points rbind concat]; try discriminate.
  intros E Hnn. injection E as <-. rewrite fold_grow_concat, <- box_grow_points_app. apply box_grow_exact, Hnn.
Qed.

Lemma box_from_parts_ok d p0 r : p0 <> [] -> exists b, box_from_parts d (p0 :: r) = Ok b.
Proof. destruct p0; [contradiction|]. intros _. cbn [box_from_parts box_from_points rbind]. eexists. reflexivity. Qed.

Lemma rbind_ret_ok {A B} (r : res A) (C : A -> B) y : rbind r (fun x => Ok (C x)) = Ok y -> exists x, r = Ok x /\ y = C x.
Proof. destruct r; cbn [rbind]; [intros H; injection H as <-; eauto|discriminate..]. Qed.

(** `GenericPolygon::with_rings` and `Multipatch::with_parts` take the box of
    the first part and grow it over the others: `from_parts` of the vertex lists. *)
Lemma first_then_rest_parts {A B} d (k : bbox -> res B) (rs : list (A * list pt)) :
  match rs with
  | [] => Panic
  | r0 :: rest => rbind (box_from_points d (snd r0)) (fun b => k (fold_left (fun b r => box_grow_points d b (snd r)) rest b))
  end = rbind (box_from_parts d (map snd rs)) k.
Proof.
  destruct rs as [|r0 rest]; [reflexivity|]. cbn [map box_from_parts].
  destruct (box_from_points d (snd r0)) as [b| |]; cbn [rbind]; [|reflexivity..]. f_equal.
  revert b. induction rest as [|r rest IH]; intros b; [reflexivity|apply IH].
Qed.

Lemma mk_multipoint_inv d ps s : mk_multipoint d ps = Ok s -> exists b, box_from_points d ps = Ok b /\ s = SMultipoint d b ps.
Proof. apply rbind_ret_ok. Qed.

Lemma mk_polyline_new_inv d ps s : mk_polyline_new d ps = Ok s -> exists b, box_from_points d ps = Ok b /\ s = SPolyline d b [ps].
Proof. unfold mk_polyline_new. destruct (length ps <? 2)%nat; [discriminate|apply rbind_ret_ok]. Qed.

Lemma mk_polyline_inv d parts s : mk_polyline d parts = Ok s -> exists b, box_from_parts d parts = Ok b /\ s = SPolyline d b parts.
Proof. unfold mk_polyline. destruct (forallb _ parts); [apply rbind_ret_ok|discriminate]. Qed.

Lemma mk_polygon_parts d rings :
  mk_polygon d rings = rbind (box_from_parts d (map snd (map (close_and_reorder d) rings)))
                             (fun b => Ok (SPolygon d b (map (close_and_reorder d) rings))).
Proof. exact (first_then_rest_parts d (fun b => Ok (SPolygon d b _)) _). Qed.

Lemma mk_polygon_inv d rings s : mk_polygon d rings = Ok s ->
  exists b, box_from_parts d (map snd (map (close_and_reorder d) rings)) = Ok b /\ s = SPolygon d b (map (close_and_reorder d) rings).
Proof. rewrite mk_polygon_parts. apply rbind_ret_ok. Qed.

Lemma mk_multipatch_parts patches :
  mk_multipatch patches = rbind (box_from_parts XYZM (map snd (map close_patch patches)))
                                (fun b => Ok (SMultipatch b (map close_patch patches))).
Proof. exact (first_then_rest_parts XYZM (fun b => Ok (SMultipatch b _)) _). Qed.

Lemma mk_multipatch_inv patches s : mk_multipatch patches = Ok s ->
  exists b, box_from_parts XYZM (map snd (map close_patch patches)) = Ok b /\ s = SMultipatch b (map close_patch patches).
Proof. rewrite mk_multipatch_parts. apply rbind_ret_ok. Qed.

Definition shape_vertices (s : shape) : list pt := concat (shape_parts s).
Definition shape_nn (s : shape) : Prop := pts_nn (shape_dim s) (shape_vertices s).

Definition shape_box_exact (s : shape) : Prop :=
  match s with
  | SMultipoint d b _ | SPolyline d b _ | SPolygon d b _ => box_exact d b (shape_vertices s)
  | SMultipatch b _ => box_exact XYZM b (shape_vertices s)
  | _ => True
  end.

Lemma single_part_box d ps b : box_from_points d ps = Ok b -> pts_nn d (concat [ps]) -> box_exact d b (concat [ps]).
Proof. cbn [concat]. rewrite app_nil_r. apply box_from_points_exact. Qed.

Lemma box_exact_ordered d b vs c : box_exact d b vs -> dim_has d c = true -> vs <> [] ->
  f64_le (get c (bmin b)) (get c (bmax b)) = true.
Proof.
  intros H Hc Hne. destruct (H c Hc) as (_ & A1 & _ & A2). destruct vs as [|v r]; [contradiction|].
  inversion A1; inversion A2; subst. eapply f64_le_trans; eassumption.
Qed.
