(** The decoders of Model/Decode.v are built from [take], [reserve], [Ret],
    [Fail] and [bind] alone, and every [reserve] asks for at most [RES_MAX]
    bytes.  So whatever property of programs those constructors preserve holds
    of the header reader, of every record reader and of the index reader: this
    is proved once, for an arbitrary such property, and instantiated below for
    [simple] (no seek, source errors propagated), [np] (panic-free) and [rb]
    (bounded pre-sizing). *)
From SF Require Import Model.Bytes Model.Prog Model.Decode.
From SF Require Import Proofs.ProgLemmas Proofs.NoPanic Proofs.Reserve.
Open Scope Z_scope.

Lemma capacity_bound n c : 0 <= c <= 32 -> capacity_for n * c <= RES_MAX.
Proof. unfold capacity_for, MAX_PREALLOC, RES_MAX. nia. Qed.

Record closed (Q : forall A, prog A -> Prop) : Prop := {
  cl_ret : forall A (a : A), Q A (Ret a);
  cl_fail : forall A e, Q A (Fail e);
  cl_take : forall n, Q _ (take n);
  cl_reserve : forall n, n <= RES_MAX -> Q _ (reserve n);
  cl_bind : forall A B (p : prog A) (f : A -> prog B), Q A p -> (forall a, Q B (f a)) -> Q B (bind p f)
}.

Section Closed.
  Variable Q : forall A, prog A -> Prop.
  Hypothesis HQ : closed Q.
  Arguments Q {A}.
  Let Q_ret := cl_ret (@Q) HQ.
  Let Q_fail := cl_fail (@Q) HQ.
  Let Q_take := cl_take (@Q) HQ.
  Let Q_reserve := cl_reserve (@Q) HQ.
  Let Q_bind := cl_bind (@Q) HQ.
  Hint Resolve Q_ret Q_fail Q_take : core.

  Lemma closed_rep_Z A n (p : prog A) : Q p -> Q (rep_Z n p).
  Proof.
    intros Hp. destruct n as [|n|n]; cbn [rep_Z]; auto.
    induction n; cbn [rep_pos]; repeat (apply Q_bind; [assumption|intros]); auto.
  Qed.

  Lemma closed_for_each A B (xs : list A) (f : A -> prog B) : (forall x, Q (f x)) -> Q (for_each xs f).
  Proof. intros H. induction xs; cbn [for_each]; auto. Qed.

  (* One step: a decoder already shown closed (by [auto], tried first so that [apply Q_bind] does not unfold it), a constructor, or a case split on the scrutinee. *)
  Ltac closed_step :=
    first [ solve [auto]
          | apply Q_bind; [|intros] | apply closed_rep_Z | apply closed_for_each; intros
          | apply Q_reserve, capacity_bound; (lia || (destruct_dim; lia))
          | match goal with
            | |- Q (if ?c then _ else _) => destruct c
            | |- Q (match ?x with _ => _ end) => destruct x
            end ]
  with destruct_dim := match goal with |- context [sizeof_point ?d] => destruct d; cbn [sizeof_point] end.
  Ltac closed_walk := repeat closed_step.

  Lemma closed_i32_le : Q read_i32_le. Proof. unfold read_i32_le; closed_walk. Qed.
  Lemma closed_i32_be : Q read_i32_be. Proof. unfold read_i32_be; closed_walk. Qed.
  Lemma closed_f64 : Q read_f64. Proof. unfold read_f64; closed_walk. Qed.
  Hint Resolve closed_i32_le closed_i32_be closed_f64 : core.

  Lemma closed_shape_type : Q read_shape_type. Proof. unfold read_shape_type; closed_walk. Qed.
  Hint Resolve closed_shape_type : core.

  Lemma closed_read_header : Q read_header. Proof. unfold read_header; closed_walk. Qed.

  Lemma closed_xy_points d n : Q (read_xy_points d n). Proof. unfold read_xy_points; closed_walk. Qed.
  Lemma closed_zs_into ps : Q (read_zs_into ps). Proof. unfold read_zs_into; closed_walk. Qed.
  Lemma closed_ms_into ps : Q (read_ms_into ps). Proof. unfold read_ms_into; closed_walk. Qed.
  Lemma closed_bbox_xy d : Q (read_bbox_xy d). Proof. unfold read_bbox_xy; closed_walk. Qed.
  Lemma closed_z_range b : Q (read_z_range b). Proof. unfold read_z_range; closed_walk. Qed.
  Lemma closed_m_range b : Q (read_m_range b). Proof. unfold read_m_range; closed_walk. Qed.
  Hint Resolve closed_xy_points closed_zs_into closed_ms_into closed_bbox_xy closed_z_range closed_m_range : core.

  Lemma closed_multipart_new d : Q (multipart_new d). Proof. unfold multipart_new, read_parts; closed_walk. Qed.
  Lemma closed_parts_xy d offs n : Q (read_parts_xy d offs n). Proof. unfold read_parts_xy; closed_walk. Qed.
  Lemma closed_parts_zs b parts : Q (read_parts_zs b parts). Proof. unfold read_parts_zs; closed_walk. Qed.
  Lemma closed_parts_ms b parts : Q (read_parts_ms b parts). Proof. unfold read_parts_ms; closed_walk. Qed.
  Hint Resolve closed_multipart_new closed_parts_xy closed_parts_zs closed_parts_ms : core.

  Lemma closed_read_point d size : Q (read_point d size). Proof. unfold read_point; closed_walk. Qed.
  Lemma closed_read_multipoint d size : Q (read_multipoint d size). Proof. unfold read_multipoint; closed_walk. Qed.
  Lemma closed_polyline_body d size : Q (read_polyline_body d size). Proof. unfold read_polyline_body; closed_walk. Qed.
  Lemma closed_read_multipatch size : Q (read_multipatch size). Proof. unfold read_multipatch, read_patch_type; closed_walk. Qed.
  Hint Resolve closed_read_point closed_read_multipoint closed_polyline_body closed_read_multipatch : core.

  Lemma closed_read_content t size : Q (read_content t size).
  Proof. destruct t; cbn [read_content]; auto; unfold read_polyline, read_polygon; closed_walk. Qed.
  Hint Resolve closed_read_content : core.

  Lemma closed_read_one_shape req : Q (read_one_shape req).
  Proof. unfold read_one_shape, read_record_header, read_from; closed_walk. Qed.

  Lemma closed_read_index_file : Q read_index_file.
  Proof. pose proof closed_read_header. unfold read_index_file; closed_walk. Qed.
End Closed.

Lemma simple_closed : closed (@simple).
Proof. split; intros; auto using @simple_ret, @simple_fail, simple_take_, simple_reserve_, @simple_bind. Qed.
Lemma np_closed : closed (@np).
Proof. split; intros; auto using @np_ret, @np_fail, np_take_, np_reserve_, @np_bind. Qed.
Lemma rb_closed : closed (@rb).
Proof. split; intros; auto using @rb_ret, @rb_fail, rb_take_, rb_reserve_, @rb_bind. Qed.

Definition simple_read_header := closed_read_header _ simple_closed.
Definition simple_read_content := closed_read_content _ simple_closed.
Definition simple_read_one_shape := closed_read_one_shape _ simple_closed.
Definition simple_read_index_file := closed_read_index_file _ simple_closed.
Definition np_read_header := closed_read_header _ np_closed.
Definition np_read_one_shape := closed_read_one_shape _ np_closed.
Definition np_read_index_file := closed_read_index_file _ np_closed.
Definition rb_read_header := closed_read_header _ rb_closed.
Definition rb_read_one_shape := closed_read_one_shape _ rb_closed.
Definition rb_read_index_file := closed_read_index_file _ rb_closed.
