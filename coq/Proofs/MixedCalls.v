(** Reader histories of the correspondence (Run/RunCase.v: [r_calls_mixed]) in
    which no call probes another type are the histories of [r_calls]
    (Model/Reader.v) the theorems speak about. *)
From SF Require Import Model.Bytes Model.Prog Model.Reader Run.RunCase.
From SF Require Import Proofs.ProgLemmas.
Open Scope Z_scope.

Lemma r_calls_mixed_plain cap req : forall os st s,
  Forall (fun o => match o with OProbe _ _ => False | _ => True end) os ->
  run (r_calls_mixed cap req st os) s = run (r_calls req st (map (rcall_of cap) os)) s.
Proof.
  induction os as [|o r IH]; intros st s H; [reflexivity|]. inversion H as [|? ? Ho Hr]; subst.
  cbn [r_calls_mixed r_calls map]. assert (E : req_of req o = req) by (destruct o; try reflexivity; contradiction).
  rewrite E, !run_bind. destruct (run (r_call req st (rcall_of cap o)) s) as [[x|e|] s1]; cbn [fst snd]; try reflexivity.
  rewrite !run_bind, (IH (snd x) s1 Hr). reflexivity.
Qed.
