(** C12 at the level of calls: under ANY fault plan armed on either
    destination, in ANY writer state, a `write_shape` or a `finalize` returns
    Ok, the type-mismatch error or the injected I/O error — never a panic —
    and leaves the positions non-negative, so that the same holds of the next
    call (C12_calls_never_panic). *)
From SF Require Import Model.Bytes Model.ShapeType Model.Shapes Model.Res Model.Encode Model.Writer.
From SF Require Import Proofs.WriterCore Proofs.WriterInv Proofs.WriterFaults.
Open Scope Z_scope.

Definition good_result (r : res unit) : Prop :=
  r = Ok tt \/ r = Err EIoInjected \/ exists a b, r = Err (EMismatch a b).

Lemma plan_cases st s :
  (exists a b, write_shape_plan st s = Err (EMismatch a b)) \/
  (exists st0 ops st1, write_shape_plan st s = Ok (st0, ops, st1) /\ Forall (fun o => op_wf (snd o)) ops).
Proof.
  unfold write_shape_plan. destruct (negb (st_eqb (h_type (ws_hdr st)) TNull) && negb (st_eqb (h_type (ws_hdr st)) (type_of s))); [left; eauto|right].
  do 3 eexists. split; [reflexivity|].
  exact (plan_skel_wf _ _ _ _ (fun t => match t with Shp => record_chunks _ _ s | Shx => index_entry_chunks _ _ end)).
Qed.

Lemma run_ops_result ops w : world_pos_ok w -> Forall (fun o => op_wf (snd o)) ops ->
  good_result (fst (run_ops ops w)) /\ world_pos_ok (snd (run_ops ops w)).
Proof.
  intros Hw Ho. destruct (run_ops_prefix ops w Hw Ho) as (pre & post & r & w' & _ & -> & Hw' & _ & _ & [[-> _]|[-> _]]);
    (split; [|exact Hw']); [left|right; left]; reflexivity.
Qed.

(* Both calls hand the result of [run_ops] on, whatever it is. *)
Theorem write_shape_outcome st w s : world_pos_ok w ->
  good_result (fst (fst (w_write_shape st w s))) /\ world_pos_ok (snd (w_write_shape st w s)).
Proof.
  intros Hw. unfold w_write_shape. destruct (plan_cases st s) as [(a & b & ->)|(st0 & ops & st1 & -> & Hwf)].
  - cbn [fst snd]. split; [right; right; eauto|exact Hw].
  - destruct (run_ops_result ops w Hw Hwf) as [G Hw']. destruct (run_ops ops w) as [r w'].
    destruct r as [[]| |]; exact (conj G Hw').
Qed.

Theorem finalize_outcome st w : world_pos_ok w ->
  good_result (fst (fst (w_finalize st w))) /\ world_pos_ok (snd (w_finalize st w)).
Proof.
  intros Hw. unfold w_finalize. destruct (negb (ws_dirty st)); [split; [left; reflexivity|exact Hw]|].
  destruct (run_ops_result (finalize_ops st) w Hw (finalize_ops_wf st)) as [G Hw']. destruct (run_ops (finalize_ops st) w) as [r w'].
  destruct r as [[]| |]; exact (conj G Hw').
Qed.
