(** C19: the code table, for every integer (no enumeration of the 2^32 values:
    case analysis over [Z]). *)
From SF Require Import Model.Bytes Model.ShapeType.
From Coq Require Import String.
Open Scope Z_scope.

Lemma st_decode_code t : st_decode (st_code t) = Some t.
Proof. destruct t; reflexivity. Qed.

Lemma st_decode_some c t : st_decode c = Some t -> st_code t = c.
Proof.
  unfold st_decode.
  repeat match goal with
  | |- context [?a =? ?b] => destruct (Z.eqb_spec a b) as [->|_]
  end; intros H; try discriminate; inversion H; subst; reflexivity.
Qed.

Lemma st_code_injective a b : st_code a = st_code b -> a = b.
Proof.
  intros H. pose proof (st_decode_code a) as Ha. rewrite H, st_decode_code in Ha.
  inversion Ha; reflexivity.
Qed.

Lemma all_types_complete t : In t all_types.
Proof. destruct t; cbn; tauto. Qed.

Lemma esri_codes_all : esri_codes = map st_code all_types.
Proof. reflexivity. Qed.

Lemma st_code_in_table t : In (st_code t) esri_codes.
Proof. rewrite esri_codes_all. apply in_map, all_types_complete. Qed.

Definition row_of (t : shape_type) : Z * (bool * (bool * (bool * string))) :=
  (st_code t, (st_has_z t, (st_has_m t, (st_is_multipart t, st_name t)))).

Lemma rows_are_the_table : map row_of all_types = esri_table.
Proof. reflexivity. Qed.

Lemma st_eqb_eq a b : st_eqb a b = true <-> a = b.
Proof.
  unfold st_eqb. rewrite Z.eqb_eq. split; [apply st_code_injective|intros ->; reflexivity].
Qed.

Lemma st_eqb_refl a : st_eqb a a = true.
Proof. apply st_eqb_eq; reflexivity. Qed.

Lemma st_eqb_neq a b : a <> b -> st_eqb a b = false.
Proof. intros H. destruct (st_eqb a b) eqn:E; [apply st_eqb_eq in E; contradiction|reflexivity]. Qed.
