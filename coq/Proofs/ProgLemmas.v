(** Laws of reading programs and of their interpreter, proved once for all
    programs by induction on the tree.  The decoders are reasoned about through
    three predicates defined here: [reads] (a run on given bytes), [simple] (no
    seek, every read under `?`) and [consumes] (how far a successful run gets). *)
From SF Require Import Model.Bytes Model.Res Model.Prog.
From SF Require Import Proofs.BytesLemmas.
Open Scope Z_scope.

Lemma s_rest_skipn s : s_rest s = skipn (Z.to_nat (s_pos s)) (s_data s).
Proof.
  unfold s_rest. destruct (Z.leb_spec (zlen (s_data s)) (s_pos s)) as [H|H]; [|reflexivity].
  symmetry. apply skipn_all2. unfold zlen in H. lia.
Qed.

Lemma run_bind {A B} (p : prog A) (f : A -> prog B) s :
  run (bind p f) s =
  match run p s with
  | (Ok a, s') => run (f a) s'
  | (Err e, s') => (Err e, s')
  | (Panic, s') => (Panic, s')
  end.
Proof.
  revert s; induction p as [a|e| |n k IH|q k IH|k IH|n k IH]; intros s; cbn [bind run]; try reflexivity.
  - destruct (do_take n s) as [r s']; apply IH.
  - destruct (do_seek_start q s) as [r s']; apply IH.
  - destruct (do_seek_end s) as [r s']; apply IH.
  - apply IH.
Qed.

Lemma run_catch {A} (p : prog A) s :
  run (catch p) s =
  match run p s with
  | (Ok a, s') => (Ok (Ok a), s')
  | (Err e, s') => (Ok (Err e), s')
  | (Panic, s') => (Panic, s')
  end.
Proof.
  revert s; induction p as [a|e| |n k IH|q k IH|k IH|n k IH]; intros s; cbn [catch run]; try reflexivity.
  - destruct (do_take n s) as [r s']; apply IH.
  - destruct (do_seek_start q s) as [r s']; apply IH.
  - destruct (do_seek_end s) as [r s']; apply IH.
  - apply IH.
Qed.

Definition op_frame {A} (s : src) (out : res A * src) : Prop :=
  fst out <> Panic /\ s_data (snd out) = s_data s /\ s_fault (snd out) = s_fault s /\
  s_reserved (snd out) = s_reserved s /\ s_ops (snd out) = S (s_ops s).

Lemma do_take_frame n s : op_frame s (do_take n s).
Proof.
  unfold do_take. destruct (faulty_now s); [|destruct (n <=? length (s_rest s))%nat];
    repeat split; cbn; discriminate.
Qed.

Lemma do_seek_start_frame q s : op_frame s (do_seek_start q s).
Proof. unfold do_seek_start. destruct (faulty_now s); repeat split; cbn; discriminate. Qed.

Lemma do_seek_end_frame s : op_frame s (do_seek_end s).
Proof. unfold do_seek_end. destruct (faulty_now s); repeat split; cbn; discriminate. Qed.

Lemma do_take_clean n s : s_fault s = None ->
  do_take n s = if (n <=? length (s_rest s))%nat
                then (Ok (firstn n (s_rest s)), bump (set_pos s (s_pos s + Z.of_nat n)))
                else (Err EIoEof, bump (set_pos s (Z.max (s_pos s) (zlen (s_data s))))).
Proof. intros H. unfold do_take, faulty_now. rewrite H. reflexivity. Qed.

Lemma run_frame {A} (p : prog A) : forall s r s', run p s = (r, s') ->
  s_data s' = s_data s /\ s_fault s' = s_fault s /\ (s_ops s <= s_ops s')%nat.
Proof.
  induction p as [a|e| |n k IH|q k IH|k IH|n k IH]; intros s r s' H; cbn [run] in H;
    try (injection H as _ <-; repeat split; apply Nat.le_refl).
  - destruct (do_take_frame n s) as (_ & D & F & _ & O). destruct (do_take n s) as [r1 s1].
    destruct (IH _ _ _ _ H) as (D' & F' & O'). cbn [snd] in *. repeat split; [congruence|congruence|lia].
  - destruct (do_seek_start_frame q s) as (_ & D & F & _ & O). destruct (do_seek_start q s) as [r1 s1].
    destruct (IH _ _ _ _ H) as (D' & F' & O'). cbn [snd] in *. repeat split; [congruence|congruence|lia].
  - destruct (do_seek_end_frame s) as (_ & D & F & _ & O). destruct (do_seek_end s) as [r1 s1].
    destruct (IH _ _ _ _ H) as (D' & F' & O'). cbn [snd] in *. repeat split; [congruence|congruence|lia].
  - exact (IH _ _ _ H).
Qed.

Lemma run_data {A} (p : prog A) s r s' : run p s = (r, s') -> s_data s' = s_data s.
Proof. intros H. apply (run_frame p s r s' H). Qed.

Definition prog_eq {A} (p q : prog A) : Prop := forall s, run p s = run q s.

Lemma prog_eq_refl {A} (p : prog A) : prog_eq p p.
Proof. intros s; reflexivity. Qed.

Lemma prog_eq_trans {A} (p q r : prog A) : prog_eq p q -> prog_eq q r -> prog_eq p r.
Proof. intros H1 H2 s; rewrite H1; apply H2. Qed.

(** In a hypothesis [H : run (x <-- p ;; q) s = (Ok _, _)]: name the outcome of [p], which cannot have failed. *)
Ltac stepn H x s1 E := rewrite run_bind in H;
  match type of H with context [run ?p ?s] => destruct (run p s) as [[x|?|] s1] eqn:E; try discriminate end.

Ltac run_step :=
  rewrite ?run_bind; cbn [run];
  match goal with
  | |- context [match run ?p ?s with _ => _ end] => destruct (run p s) as [[?|?|] ?]
  end; try reflexivity.

(** [rep_Z] recurses on the binary numeral, as the model needs for counts up to
    2^31; it runs as the unary [rep_nat], about which everything else is proved. *)
Lemma rep_nat_add {A} (a b : nat) (p : prog A) :
  prog_eq (rep_nat (a + b) p) (x <-- rep_nat a p ;; y <-- rep_nat b p ;; Ret (x ++ y)).
Proof.
  induction a as [|a IH]; intros s; cbn [rep_nat Nat.add].
  - cbn [bind]. run_step.
  - rewrite !run_bind. destruct (run p s) as [[x|e|] s1]; try reflexivity.
    rewrite !run_bind, IH. repeat run_step.
Qed.

Lemma rep_pos_nat {A} (n : positive) (p : prog A) : prog_eq (rep_pos n p) (rep_nat (Pos.to_nat n) p).
Proof.
  induction n as [m IH|m IH|]; intros s; cbn [rep_pos].
  - rewrite Pos2Nat.inj_xI. cbn [rep_nat]. rewrite !run_bind.
    destruct (run p s) as [[x|e|] s1]; try reflexivity.
    replace (2 * Pos.to_nat m)%nat with (Pos.to_nat m + Pos.to_nat m)%nat by lia.
    rewrite !run_bind, rep_nat_add, !run_bind, IH.
    destruct (run (rep_nat (Pos.to_nat m) p) s1) as [[l1|e|] s2]; try reflexivity.
    rewrite !run_bind, IH. repeat run_step.
  - rewrite Pos2Nat.inj_xO.
    replace (2 * Pos.to_nat m)%nat with (Pos.to_nat m + Pos.to_nat m)%nat by lia.
    rewrite rep_nat_add, !run_bind, IH.
    destruct (run (rep_nat (Pos.to_nat m) p) s) as [[l1|e|] s2]; try reflexivity.
    rewrite !run_bind, IH. reflexivity.
  - change (Pos.to_nat 1) with 1%nat. cbn [rep_nat]. rewrite !run_bind.
    destruct (run p s) as [[x|e|] s1]; try reflexivity.
Qed.

Lemma rep_Z_nat {A} (n : nat) (p : prog A) : prog_eq (rep_Z (Z.of_nat n) p) (rep_nat n p).
Proof.
  destruct n as [|n]; [intros s; reflexivity|].
  cbn [Z.of_nat rep_Z]. intros s. rewrite rep_pos_nat, SuccNat2Pos.id_succ. reflexivity.
Qed.

Definition clean (s : src) : Prop := s_fault s = None /\ 0 <= s_pos s.

(** The form of every decoder lemma.  What follows [bs] is arbitrary ([r]), so
    the lemmas compose along [bind] by appending the bytes ([reads_bind]). *)
Definition reads {A} (p : prog A) (bs : bytes) (a : A) : Prop :=
  forall s r, clean s -> s_rest s = bs ++ r ->
    exists s', run p s = (Ok a, s') /\ clean s' /\ s_data s' = s_data s /\ s_pos s' = s_pos s + zlen bs.

Lemma rest_after s s' bs r :
  0 <= s_pos s -> s_data s' = s_data s -> s_pos s' = s_pos s + zlen bs -> s_rest s = bs ++ r -> s_rest s' = r.
Proof.
  rewrite !s_rest_skipn. unfold zlen. intros Hp Hd Hs Hr. rewrite Hd, Hs.
  rewrite Z2Nat.inj_add, Nat2Z.id by lia. apply skipn_app_after, Hr.
Qed.

Lemma clean_src_of data : clean (src_of data).
Proof. split; [reflexivity|apply Z.le_refl]. Qed.

Lemma s_rest_src_of data : s_rest (src_of data) = data.
Proof. rewrite s_rest_skipn. reflexivity. Qed.

Lemma run_take_ok n s bs s' : run (take n) s = (Ok bs, s') ->
  bs = firstn n (s_rest s) /\ (n <= length (s_rest s))%nat /\ s' = bump (set_pos s (s_pos s + Z.of_nat n)).
Proof.
  unfold take. cbn [run]. unfold do_take. destruct (faulty_now s); [discriminate|].
  destruct (Nat.leb_spec n (length (s_rest s))); [|discriminate]. cbn [lift_res run].
  intros E; injection E as <- <-. auto.
Qed.

Lemma run_seek_start_ok p s q s' : run (seek_start p) s = (Ok q, s') -> q = p /\ s' = bump (set_pos s p).
Proof.
  unfold seek_start. cbn [run]. unfold do_seek_start. destruct (faulty_now s); [discriminate|].
  cbn [lift_res run]. intros E; injection E as <- <-. auto.
Qed.

Lemma run_seek_end_ok s q s' : run seek_end s = (Ok q, s') ->
  q = zlen (s_data s) /\ s' = bump (set_pos s (zlen (s_data s))).
Proof.
  unfold seek_end. cbn [run]. unfold do_seek_end. destruct (faulty_now s); [discriminate|].
  cbn [lift_res run]. intros E; injection E as <- <-. auto.
Qed.

Lemma run_seek_start p s : clean s -> 0 <= p ->
  run (seek_start p) s = (Ok p, bump (set_pos s p)) /\ clean (bump (set_pos s p)).
Proof.
  intros [Hf Hp] H0. unfold seek_start. cbn [run]. unfold do_seek_start, faulty_now. rewrite Hf. cbn [lift_res run].
  split; [reflexivity|]. split; [exact Hf|exact H0].
Qed.

Lemma run_seek_end s : clean s ->
  run seek_end s = (Ok (zlen (s_data s)), bump (set_pos s (zlen (s_data s)))) /\ clean (bump (set_pos s (zlen (s_data s)))).
Proof.
  intros [Hf Hp]. unfold seek_end. cbn [run]. unfold do_seek_end, faulty_now. rewrite Hf. cbn [lift_res run].
  split; [reflexivity|]. split; [exact Hf|apply zlen_nonneg].
Qed.

Lemma reads_prog_eq {A} (p q : prog A) bs a : prog_eq p q -> reads q bs a -> reads p bs a.
Proof. intros He Hq s r Hc Hr. rewrite He. exact (Hq s r Hc Hr). Qed.

Lemma reads_ret {A} (a : A) : reads (Ret a) [] a.
Proof.
  intros s r Hc Hr. exists s. cbn [run]. repeat split; try apply Hc. change (zlen (@nil Z)) with 0. lia.
Qed.

Lemma reads_bind {A B} (p : prog A) (f : A -> prog B) bs1 bs2 a b :
  reads p bs1 a -> reads (f a) bs2 b -> reads (bind p f) (bs1 ++ bs2) b.
Proof.
  intros Hp Hf s r Hc Hr. rewrite <- app_assoc in Hr.
  destruct (Hp s (bs2 ++ r) Hc Hr) as (s1 & Hrun & Hc1 & Hd1 & Hp1).
  assert (Hr1 : s_rest s1 = bs2 ++ r) by (eapply rest_after; eauto; apply Hc).
  destruct (Hf s1 r Hc1 Hr1) as (s2 & Hrun2 & Hc2 & Hd2 & Hp2).
  exists s2. rewrite run_bind, Hrun. repeat split; try apply Hc2; try congruence.
  rewrite Hp2, Hp1, zlen_app. lia.
Qed.

Lemma reads_bind_nil {A B} (p : prog A) (f : A -> prog B) bs a b :
  reads p [] a -> reads (f a) bs b -> reads (bind p f) bs b.
Proof. intros Hp Hf. change bs with ([] ++ bs). eapply reads_bind; eauto. Qed.

Lemma reads_bind_last {A B} (p : prog A) (f : A -> prog B) bs a b :
  reads p bs a -> reads (f a) [] b -> reads (bind p f) bs b.
Proof. intros Hp Hf. rewrite <- (app_nil_r bs). exact (reads_bind _ _ _ _ _ _ Hp Hf). Qed.

Lemma reads_take (n : nat) (bs : bytes) : length bs = n -> reads (take n) bs bs.
Proof.
  intros <- s r [Hf Hp] Hr. unfold take. cbn [run]. rewrite do_take_clean, Hr by exact Hf.
  rewrite app_length. replace (length bs <=? length bs + length r)%nat with true
    by (symmetry; apply Nat.leb_le; lia).
  rewrite firstn_app, firstn_all, Nat.sub_diag, app_nil_r. cbn [lift_res run firstn].
  eexists; split; [reflexivity|]. unfold clean, bump, set_pos; cbn. repeat split; auto; unfold zlen; lia.
Qed.

Lemma reads_reserve (n : Z) : reads (reserve n) [] tt.
Proof.
  intros s r Hc Hr. unfold reserve. cbn [run]. eexists; split; [reflexivity|].
  unfold clean, do_reserve in *; cbn. repeat split; try apply Hc. change (zlen (@nil Z)) with 0; lia.
Qed.

Lemma reads_for_each {A B} (f : A -> prog B) (enc : A -> bytes) (g : A -> B) (xs : list A) :
  (forall x, In x xs -> reads (f x) (enc x) (g x)) ->
  reads (for_each xs f) (flat_map enc xs) (map g xs).
Proof.
  induction xs as [|x xs IH]; intros H; cbn [for_each flat_map map].
  - apply reads_ret.
  - eapply reads_bind; [apply H; left; reflexivity|].
    eapply reads_bind_last; [apply IH; intros y Hy; apply H; right; exact Hy|apply reads_ret].
Qed.

Lemma rep_nat_for_each {A B} (p : prog B) (l : list A) : rep_nat (length l) p = for_each l (fun _ => p).
Proof. induction l as [|x l IH]; cbn [length rep_nat for_each]; [|rewrite IH]; reflexivity. Qed.

Lemma reads_rep_nat {A B} (p : prog B) (enc : A -> bytes) (g : A -> B) (l : list A) :
  (forall x, In x l -> reads p (enc x) (g x)) -> reads (rep_nat (length l) p) (flat_map enc l) (map g l).
Proof. rewrite rep_nat_for_each. apply reads_for_each. Qed.

Lemma reads_rep_Z_map {A B} (p : prog B) (enc : A -> bytes) (g : A -> B) (l : list A) :
  (forall x, In x l -> reads p (enc x) (g x)) -> reads (rep_Z (zlen l) p) (flat_map enc l) (map g l).
Proof. intros H. eapply reads_prog_eq; [apply rep_Z_nat|]. apply reads_rep_nat, H. Qed.

Lemma reads_rep_Z {A} (p : prog A) (enc : A -> bytes) (l : list A) :
  (forall x, In x l -> reads p (enc x) x) -> reads (rep_Z (zlen l) p) (flat_map enc l) l.
Proof. intros H. rewrite <- (map_id l) at 3. apply reads_rep_Z_map, H. Qed.

(** No seek, and every read passes the source's error on, as `?` does in the
    Rust: all decoders below the reader have this form. *)
Inductive simple {A} : prog A -> Prop :=
| simple_ret a : simple (Ret a)
| simple_fail e : simple (Fail e)
| simple_panic : simple PanicP
| simple_take n k : (forall e, k (Err e) = Fail e) -> k Panic = PanicP ->
                    (forall bs, simple (k (Ok bs))) -> simple (Take n k)
| simple_reserve n k : simple k -> simple (Reserve n k).

Lemma simple_bind {A B} (p : prog A) (f : A -> prog B) :
  simple p -> (forall a, simple (f a)) -> simple (bind p f).
Proof.
  intros Hp Hf; induction Hp as [a|e| |n k He Hk Hs IH|n k Hs IH]; cbn [bind]; try constructor; auto.
  - intros e. rewrite He. reflexivity.
  - rewrite Hk. reflexivity.
Qed.

(* The trailing underscore: [simple_take] is the constructor. *)
Lemma simple_take_ n : simple (take n).
Proof. unfold take; constructor; intros; cbn [lift_res]; try reflexivity; constructor. Qed.

Lemma simple_reserve_ n : simple (reserve n).
Proof. unfold reserve; repeat constructor. Qed.

Lemma simple_pos {A} (p : prog A) : simple p ->
  forall s r s', s_fault s = None -> run p s = (r, s') ->
    s_pos s <= s_pos s' /\ (s_pos s <= zlen (s_data s) -> s_pos s' <= zlen (s_data s)).
Proof.
  induction 1 as [a0|e| |n k0 He Hk Hs IH|n k0 Hs IH]; intros s r s' Hf Hrun; cbn [run] in Hrun;
    try (injection Hrun as _ <-; lia).
  - rewrite do_take_clean in Hrun by exact Hf. destruct (Nat.leb_spec n (length (s_rest s))) as [Hn|Hn].
    + apply IH in Hrun; [|exact Hf]. cbn [bump set_pos s_pos s_data] in Hrun.
      rewrite s_rest_skipn, skipn_length in Hn. unfold zlen in *. lia.
    + rewrite He in Hrun. cbn [run] in Hrun. injection Hrun as _ <-. cbn [bump set_pos s_pos s_data]. lia.
  - exact (IH (do_reserve n s) _ _ Hf Hrun).
Qed.

Lemma simple_clean {A} (p : prog A) s r s' : simple p -> clean s -> run p s = (r, s') ->
  clean s' /\ s_data s' = s_data s.
Proof.
  intros Hs [Hf Hp] Hrun. destruct (run_frame p s r s' Hrun) as (D & F & _).
  destruct (simple_pos p Hs s r s' Hf Hrun) as [M _]. split; [split; [congruence|lia]|exact D].
Qed.

(** How far a successful run gets.  That the bytes passed over exist is claimed
    only for [0 < n]: a source may stand beyond the end of its data, which a
    program that takes nothing does not notice. *)
Definition consumes {A} (p : prog A) (n : Z) : Prop :=
  forall s a s', clean s -> run p s = (Ok a, s') ->
    clean s' /\ s_data s' = s_data s /\ s_pos s' = s_pos s + n /\ (0 < n -> s_pos s' <= zlen (s_data s)).

Lemma consumes_ret {A} (a : A) : consumes (Ret a) 0.
Proof. intros s b s' Hc E. cbn [run] in E. injection E as _ <-. repeat split; try apply Hc; lia. Qed.

Lemma consumes_fail {A} e n : consumes (@Fail A e) n.
Proof. intros s b s' Hc E. discriminate. Qed.

Lemma consumes_take n : consumes (take n) (Z.of_nat n).
Proof.
  intros s bs s' [Hf Hp] E. destruct (run_take_ok n s bs s' E) as (_ & Hn & ->).
  rewrite s_rest_skipn, skipn_length in Hn. unfold clean, zlen. cbn [bump set_pos s_pos s_data s_fault].
  repeat split; try assumption; lia.
Qed.

(** The budget form lets the amounts be computed while the program is walked:
    [k] is given, [n] comes from the lemma for [p], the rest is left for [f]. *)
Lemma consumes_bind {A B} (p : prog A) (f : A -> prog B) n k :
  consumes p n -> 0 <= n <= k -> (forall a, consumes (f a) (k - n)) -> consumes (bind p f) k.
Proof.
  intros Hp Hn Hf s b s' Hc H. rewrite run_bind in H. destruct (run p s) as [[a|e|] s1] eqn:E; try discriminate.
  destruct (Hp _ _ _ Hc E) as (C1 & D1 & P1 & B1). destruct (Hf a _ _ _ C1 H) as (C2 & D2 & P2 & B2).
  rewrite D1 in D2, B2. repeat split; try apply C2; try assumption; lia.
Qed.

Definition truncate (k : Z) (s : src) : src :=
  mksrc (firstn (Z.to_nat k) (s_data s)) (s_pos s) (s_ops s) (s_fault s) (s_reserved s).

Lemma rest_truncate k s :
  0 <= s_pos s -> s_rest (truncate k s) = firstn (Z.to_nat (k - s_pos s)) (s_rest s).
Proof.
  intros H0. rewrite !s_rest_skipn. unfold truncate; cbn [s_data s_pos].
  rewrite skipn_firstn_comm. f_equal. lia.
Qed.

Theorem simple_truncation {A} (p : prog A) : simple p ->
  forall s a s', clean s -> run p s = (Ok a, s') ->
  forall k, s_pos s <= k ->
    (s_pos s' <= k -> run p (truncate k s) = (Ok a, truncate k s')) /\
    (k < s_pos s' -> exists s2, run p (truncate k s) = (Err EIoEof, s2)).
Proof.
  induction 1 as [a0|e| |n k0 He Hk Hs IH|n k0 Hs IH]; intros s a s' Hc Hrun k Hle; cbn [run] in *.
  - inversion Hrun; subst. split; [reflexivity|lia].
  - discriminate.
  - discriminate.
  - destruct Hc as [Hf Hp]. rewrite do_take_clean in * by exact Hf.
    destruct (Nat.leb_spec n (length (s_rest s))) as [Hn|Hn].
    + set (s1 := bump (set_pos s (s_pos s + Z.of_nat n))) in *.
      assert (Hc1 : clean s1) by (split; [exact Hf|cbn; lia]).
      destruct (simple_pos _ (Hs _) s1 _ s' Hf Hrun) as [Hmono _]. change (s_pos s1) with (s_pos s + Z.of_nat n) in Hmono.
      rewrite rest_truncate by exact Hp.
      destruct (Nat.leb_spec n (length (firstn (Z.to_nat (k - s_pos s)) (s_rest s)))) as [Hn2|Hn2];
        rewrite firstn_length in Hn2.
      * (* [n] bytes are left before the cut: the same bytes are served *)
        rewrite firstn_firstn. replace (Nat.min n (Z.to_nat (k - s_pos s))) with n by lia.
        exact (IH (firstn n (s_rest s)) s1 a s' Hc1 Hrun k ltac:(cbn; lia)).
      * (* fewer are left: EOF, and the full run ended beyond the cut *)
        rewrite He. cbn [run]. split; [lia|]. intros _. eexists; reflexivity.
    + rewrite He in Hrun. cbn [run] in Hrun. discriminate.
  - apply (IH (do_reserve n s) a s'); auto.
Qed.

Definition full_of (data : bytes) (s : src) : src := mksrc data (s_pos s) (s_ops s) (s_fault s) (s_reserved s).

Lemma truncate_full data K s : s_data s = firstn (Z.to_nat K) data -> truncate K (full_of data s) = s.
Proof. intros H. unfold truncate, full_of. cbn [s_data s_pos s_ops s_fault s_reserved]. rewrite <- H. destruct s; reflexivity. Qed.

Lemma rest_beyond s : zlen (s_data s) <= s_pos s -> s_rest s = [].
Proof. intros H. unfold s_rest. destruct (Z.leb_spec (zlen (s_data s)) (s_pos s)); [reflexivity|lia]. Qed.
