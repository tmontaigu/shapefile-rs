(** The invariant of the writer state machine (L3 of DESIGN.md), for every
    history of write_shape / finalize calls on fault-free destinations.  The
    files left behind are a function of the accepted shapes only. *)
From SF Require Import Model.Bytes Model.ShapeType Model.Shapes Model.Res Model.Encode Model.Writer.
From SF Require Import Proofs.BytesLemmas Proofs.ShapeTypeProofs Proofs.SizeProofs Proofs.WriterCore.
Open Scope Z_scope.

(** Whether the writer takes [s] after [ss]; then the header field of the
    writer and the two streams as functions of the accepted shapes [ss].  [hdr_step] is the update that ends `write_shape`. *)
Definition accepts_type (ss : list shape) (s : shape) : bool :=
  match ss with [] => true | s0 :: _ => st_eqb (type_of s0) (type_of s) end.

Definition hdr_step (h : header) (s : shape) : header :=
  set_box (set_len h (h_len h + (wrap_i32 (record_words s) + 4))) (grow_from_shape (h_box h) s).

Definition hdr_after (ss : list shape) : header :=
  match ss with
  | [] => header_default
  | s0 :: _ => fold_left hdr_step ss (set_type_box header_default (type_of s0) sentinel_box)
  end.

Fixpoint records_from (i : Z) (ss : list shape) : bytes :=
  match ss with
  | [] => []
  | s :: r => record_bytes (type_of s) (wrap_i32 i) s ++ records_from (i + 1) r
  end.

Fixpoint index_from (off : Z) (ss : list shape) : bytes :=
  match ss with
  | [] => []
  | s :: r => concat (index_entry_chunks off (wrap_i32 (record_words s)))
              ++ index_from (off + (wrap_i32 (record_words s) + 4)) r
  end.

Definition len_after (off : Z) (ss : list shape) : Z :=
  fold_left (fun o s => o + (wrap_i32 (record_words s) + 4)) ss off.

Lemma records_from_app i a b : records_from i (a ++ b) = records_from i a ++ records_from (i + zlen a) b.
Proof.
  revert i; induction a as [|s a IH]; intros i; cbn [app records_from].
  - change (zlen (@nil shape)) with 0. rewrite Z.add_0_r. reflexivity.
  - rewrite IH, zlen_cons, <- app_assoc. do 3 f_equal. lia.
Qed.

Lemma index_from_app off a b : index_from off (a ++ b) = index_from off a ++ index_from (len_after off a) b.
Proof.
  revert off; induction a as [|s a IH]; intros off; cbn [app index_from len_after fold_left]; [reflexivity|].
  rewrite IH, <- app_assoc. reflexivity.
Qed.

Lemma records_from_single i s : records_from i [s] = concat (record_chunks (type_of s) (wrap_i32 i) s).
Proof. cbn [records_from]. rewrite app_nil_r. reflexivity. Qed.

Lemma index_from_single off s : index_from off [s] = concat (index_entry_chunks off (wrap_i32 (record_words s))).
Proof. cbn [index_from]. rewrite app_nil_r. reflexivity. Qed.

Lemma record_bytes_nonempty t i s : record_bytes t i s <> [].
Proof.
  intros E. pose proof (record_bytes_length t i s) as H. rewrite E in H. change (zlen (@nil Z)) with 0 in H.
  assert (0 <= record_words s).
  { unfold record_words. apply Z.div_pos; [|lia]. rewrite <- size_in_bytes_correct. pose proof (zlen_nonneg (content_bytes s)). lia. }
  lia.
Qed.

Lemma index_entry_nonempty off w rest : concat (index_entry_chunks off w) ++ rest <> [].
Proof.
  unfold index_entry_chunks. cbn [concat]. intros E. apply (f_equal (@length Z)) in E.
  rewrite !app_length, i32_be_length in E. cbn in E. lia.
Qed.

Definition final_hdr (ss : list shape) : header := set_box (hdr_after ss) (subst_sentinels (h_box (hdr_after ss))).
Definition final_shx_hdr (ss : list shape) : header :=
  set_len (final_hdr ss) (50 + Z.quot (wrap_i32 (zlen ss) * 2 * 4) 2).
Definition final_shp (ss : list shape) : bytes := header_bytes (final_hdr ss) ++ records_from 1 ss.
Definition final_shx (ss : list shape) : bytes := header_bytes (final_shx_hdr ss) ++ index_from 50 ss.

Lemma hdr_step_type h s : h_type (hdr_step h s) = h_type h.
Proof. reflexivity. Qed.

Lemma fold_hdr_step_type ss h : h_type (fold_left hdr_step ss h) = h_type h.
Proof. revert h; induction ss as [|s ss IH]; intros h; cbn [fold_left]; [reflexivity|]. rewrite IH. reflexivity. Qed.

Lemma hdr_after_type ss : h_type (hdr_after ss) = match ss with [] => TNull | s0 :: _ => type_of s0 end.
Proof. destruct ss as [|s0 ss]; [reflexivity|]. unfold hdr_after. rewrite fold_hdr_step_type. reflexivity. Qed.

Lemma fold_hdr_step_len ss h : h_len (fold_left hdr_step ss h) = len_after (h_len h) ss.
Proof.
  revert h; induction ss as [|s ss IH]; intros h; cbn [fold_left len_after]; [reflexivity|]. rewrite IH. reflexivity.
Qed.

Lemma hdr_after_len ss : h_len (hdr_after ss) = len_after 50 ss.
Proof. destruct ss as [|s0 ss]; [reflexivity|]. unfold hdr_after. rewrite fold_hdr_step_len. reflexivity. Qed.

Lemma hdr_after_snoc ss s : accepts_type ss s = true ->
  hdr_after (ss ++ [s]) =
  hdr_step (match ss with [] => set_type_box header_default (type_of s) sentinel_box | _ => hdr_after ss end) s.
Proof.
  intros Ha. destruct ss as [|s0 ss]; [reflexivity|].
  cbn [app]. unfold hdr_after. rewrite (app_comm_cons ss [s] s0). rewrite fold_left_app. reflexivity.
Qed.

Definition is_nil {A} (l : list A) : bool := match l with [] => true | _ => false end.

(** Both destinations are a header slot followed by a stream to which every
    accepted shape appends its [payload]: what follows is stated once, for a
    destination [t] in use ([dest_on hs t = true]). *)
Definition dest_on (hs : bool) (t : dest) : bool := match t with Shp => true | Shx => hs end.

Definition stream (t : dest) (ss : list shape) : bytes :=
  match t with Shp => records_from 1 ss | Shx => index_from 50 ss end.

Definition payload (t : dest) (ss : list shape) (s : shape) : chunks :=
  match t with
  | Shp => record_chunks (type_of s) (wrap_i32 (1 + zlen ss)) s
  | Shx => index_entry_chunks (len_after 50 ss) (wrap_i32 (record_words s))
  end.

Definition final_hdr_at (t : dest) (ss : list shape) : header :=
  match t with Shp => final_hdr ss | Shx => final_shx_hdr ss end.

Lemma stream_snoc t ss s : stream t (ss ++ [s]) = stream t ss ++ concat (payload t ss s).
Proof.
  destruct t; cbn [stream payload]; [rewrite records_from_app, records_from_single|rewrite index_from_app, index_from_single];
    reflexivity.
Qed.

(* In the shape of the hypothesis on [first] of [bp_dest_ops] and [dest_ops_cut]
   (CrashStates.v), where [first] is [is_nil ss]. *)
Lemma stream_is_nil t ss : if is_nil ss then stream t ss = [] else stream t ss <> [].
Proof.
  destruct ss as [|s0 ss]; destruct t; cbn [is_nil stream records_from index_from]; [reflexivity|reflexivity| |apply index_entry_nonempty].
  intros E. apply app_eq_nil in E. exact (record_bytes_nonempty _ _ _ (proj1 E)).
Qed.

(** The buffer is [H] followed by the stream [R], and the position is at its end. *)
Definition hfile (H R : bytes) (x : bp) : Prop := fst x = H ++ R /\ snd x = length (fst x).

(** [hfile] leaves the header slot [H] free.  Along a fault-free history it is
    nothing at all before the first write and 100 bytes from then on; [slot]
    (WriterFaults.v) allows in addition a partly written one. *)
Definition hdr_slot (H R : bytes) : Prop := (H = [] /\ R = []) \/ length H = 100%nat.

Lemma header_bytes_len h : length (header_bytes h) = 100%nat.
Proof. pose proof (header_bytes_length h) as E. unfold zlen in E. lia. Qed.

Lemma hdr_slot_nonempty H R : hdr_slot H R -> R <> [] -> length H = 100%nat.
Proof. intros [[_ E]|Hl] Hn; [contradiction|exact Hl]. Qed.

Lemma hdr_slot_full H R : length H = 100%nat -> hdr_slot H R.
Proof. intros Hl; right; exact Hl. Qed.

Lemma hdr_slot_skipn H R : hdr_slot H R -> skipn 100 (H ++ R) = R.
Proof.
  intros [[-> ->]|Hl]; [reflexivity|]. rewrite skipn_app, skipn_all2, Hl by lia. reflexivity.
Qed.

Lemma bp_seek0_writes cs (x : bp) :
  bp_ops (WSeekStart 0 :: map WriteAll cs) x = (concat cs ++ skipn (length (concat cs)) (fst x), length (concat cs)).
Proof.
  destruct x as [buf pos]. change (bp_ops (WSeekStart 0 :: map WriteAll cs) (buf, pos)) with (bp_ops (map WriteAll cs) (buf, 0%nat)).
  rewrite bp_write_chunks, write_at_0 by lia. reflexivity.
Qed.

Lemma bp_append H R x cs :
  hfile H R x -> hfile H (R ++ concat cs) (bp_ops (map WriteAll cs) x).
Proof.
  intros [Hb Hp]. destruct x as [buf pos]; cbn [fst snd] in *. subst pos.
  rewrite bp_write_chunks by lia. rewrite write_at_end. split; cbn [fst snd].
  - rewrite Hb, app_assoc. reflexivity.
  - rewrite app_length. reflexivity.
Qed.

(** What finalize sends to one destination, and what an accepted write sends:
    on the first write the header is reserved at offset 0; after an interrupted
    finalize the destination is re-positioned at its end; then the payload. *)
Definition fin_ops (h : header) : list wop := WSeekStart 0 :: map WriteAll (header_chunks h) ++ [WSeekEnd; WFlush].

Definition dest_ops (first int : bool) (hc cs : chunks) : list wop :=
  (if first then WSeekStart 0 :: map WriteAll hc else []) ++ (if int then [WSeekEnd] else []) ++ map WriteAll cs.

Lemma bp_fin_ops h (x : bp) : hfile (header_bytes h) (skipn 100 (fst x)) (bp_ops (fin_ops h) x).
Proof.
  unfold fin_ops. rewrite app_comm_cons, bp_ops_app, bp_seek0_writes. fold (header_bytes h). rewrite header_bytes_len.
  split; reflexivity.
Qed.

Lemma bp_dest_ops (first int : bool) R (x : bp) h cs :
  skipn 100 (fst x) = R -> (int = false -> snd x = length (fst x)) -> (if first then R = [] else R <> []) ->
  exists H, length H = 100%nat /\ hfile H (R ++ concat cs) (bp_ops (dest_ops first int (header_chunks h) cs) x).
Proof.
  intros Hb Hp Hf. unfold dest_ops. rewrite !bp_ops_app.
  set (y := bp_ops (if first then WSeekStart 0 :: map WriteAll (header_chunks h) else []) x).
  assert (G : exists H, length H = 100%nat /\ fst y = H ++ R /\ (int = false -> snd y = length (fst y))).
  { unfold y. destruct first.
    - exists (header_bytes h). rewrite bp_seek0_writes. fold (header_bytes h). rewrite header_bytes_len, Hb, Hf, app_nil_r.
      split; [reflexivity|]. split; [reflexivity|intros _; symmetry; apply header_bytes_len].
    - exists (firstn 100 (fst x)). split; [|split; [rewrite <- Hb; symmetry; apply firstn_skipn|exact Hp]].
      (* something follows byte 100 ([Hf], [Hb]), so there are 100 bytes *)
      rewrite <- Hb in Hf. apply skipn_nonempty in Hf. rewrite firstn_length. lia. }
  destruct G as (H & Hl & Eb & Ep). exists H. split; [exact Hl|]. apply bp_append. destruct int.
  - destruct y as [buf pos]. split; [exact Eb|reflexivity].
  - split; [exact Eb|apply Ep; reflexivity].
Qed.

(** The writer [st] on [w] has accepted exactly [ss].  [world_wf] includes that
    NEITHER DESTINATION HAS A FAULT PLAN: this is the invariant of fault-free
    histories only, and what survives refused operations is [WBuf]
    (WriterFaults.v).  The slot holds the final header, and the destination is
    flushed, once nothing is left to commit. *)
Record WInv (hs : bool) (st : wstate) (w : world) (ss : list shape) : Prop := mkWInv {
  inv_wf : world_wf w;
  inv_hdr : ws_hdr st = hdr_after ss;
  inv_rec : ws_recnum st = 1 + zlen ss;
  inv_hs : ws_has_shx st = hs;
  inv_shp : exists H, hfile H (records_from 1 ss) (bp_of (w_shp w)) /\ hdr_slot H (records_from 1 ss)
            /\ (ws_dirty st = false -> H = header_bytes (final_hdr ss) /\ d_flushed (w_shp w) = true);
  inv_shx : if hs
            then exists H, hfile H (index_from 50 ss) (bp_of (w_shx w)) /\ hdr_slot H (index_from 50 ss)
                 /\ (ws_dirty st = false -> H = header_bytes (final_shx_hdr ss) /\ d_flushed (w_shx w) = true)
            else bp_of (w_shx w) = ([], 0%nat);
  inv_int : ws_interrupted st = false
}.

Lemma WInv_dev hs st w ss t : WInv hs st w ss -> dest_on hs t = true ->
  exists H, hfile H (stream t ss) (bp_of (get_dev w t)) /\ hdr_slot H (stream t ss)
    /\ (ws_dirty st = false -> H = header_bytes (final_hdr_at t ss) /\ d_flushed (get_dev w t) = true).
Proof.
  intros Inv Ht. destruct t; [apply Inv|]. cbn [dest_on] in Ht. subst hs. exact (inv_shx _ _ _ _ Inv).
Qed.

Lemma WInv_intro hs st w ss :
  world_wf w -> ws_hdr st = hdr_after ss -> ws_recnum st = 1 + zlen ss -> ws_has_shx st = hs ->
  (forall t, dest_on hs t = true ->
     exists H, hfile H (stream t ss) (bp_of (get_dev w t)) /\ hdr_slot H (stream t ss)
       /\ (ws_dirty st = false -> H = header_bytes (final_hdr_at t ss) /\ d_flushed (get_dev w t) = true)) ->
  (hs = false -> bp_of (w_shx w) = ([], 0%nat)) -> ws_interrupted st = false ->
  WInv hs st w ss.
Proof.
  intros Hwf Hh Hr Hhs Hd Hx Hi. constructor; try assumption; [exact (Hd Shp eq_refl)|].
  destruct hs; [exact (Hd Shx eq_refl)|exact (Hx eq_refl)].
Qed.

Lemma world0_wf : world_wf world0.
Proof. unfold world_wf, dev_wf, world0, wdev_empty; cbn. repeat split; lia. Qed.

Lemma WInv_init hs : WInv hs (w_new hs) world0 [].
Proof.
  apply WInv_intro; try reflexivity; [apply world0_wf|].
  intros t _. exists []. rewrite (stream_is_nil t []).
  split; [destruct t; split; reflexivity|]. split; [left; split; reflexivity|]. intros Hd; discriminate Hd.
Qed.

(** What a write or a finalize needs of the state it starts in: the stream
    follows byte 100 of each destination, and each is positioned at its end
    unless the writer re-positions first (after an interrupted finalize).
    Nothing is asked of the header slot: a failed finalize leaves a [Ready]
    state once the fault plans are cleared ([failed_finalize_ready],
    WriterFaults.v). *)
Record Ready (hs : bool) (st : wstate) (w : world) (ss : list shape) : Prop := mkReady {
  rd_wf : world_wf w;
  rd_hdr : ws_hdr st = hdr_after ss;
  rd_rec : ws_recnum st = 1 + zlen ss;
  rd_hs : ws_has_shx st = hs;
  rd_dev : forall t, dest_on hs t = true ->
             skipn 100 (fst (bp_of (get_dev w t))) = stream t ss /\
             (ws_interrupted st = false -> snd (bp_of (get_dev w t)) = length (fst (bp_of (get_dev w t))));
  rd_nox : hs = false -> bp_of (w_shx w) = ([], 0%nat)
}.

Lemma WInv_Ready hs st w ss : WInv hs st w ss -> Ready hs st w ss.
Proof.
  intros Inv. constructor; try apply Inv.
  - intros t Ht. destruct (WInv_dev hs st w ss t Inv Ht) as (H & [Hb Hp] & Hs & _).
    rewrite Hb at 1. split; [apply hdr_slot_skipn, Hs|intros _; exact Hp].
  - intros ->. exact (inv_shx _ _ _ _ Inv).
Qed.

Lemma last_is_flush_finalize ops b : last_is_flush (ops ++ [WSeekEnd; WFlush]) b = true.
Proof. unfold last_is_flush. rewrite rev_app_distr. reflexivity. Qed.

Lemma last_is_flush_writes cs tail b : tail <> [] -> last_is_flush (tail ++ map WriteAll cs) b = false \/ cs = [].
Proof.
  intros Ht. destruct cs as [|c cs]; [right; reflexivity|left].
  unfold last_is_flush. rewrite rev_app_distr. cbn [map].
  destruct (rev (WriteAll c :: map WriteAll cs)) as [|o r] eqn:E.
  - apply (f_equal (@length wop)) in E. rewrite rev_length in E. discriminate.
  - assert (In o (WriteAll c :: map WriteAll cs)) as Hin by (apply in_rev; rewrite E; left; reflexivity).
    cbn [app]. destruct Hin as [<-|Hin]; [reflexivity|]. apply in_map_iff in Hin. destruct Hin as (x & <- & _). reflexivity.
Qed.

Definition nonnull (ss : list shape) : Prop := Forall (fun x => type_of x <> TNull) ss.

Definition hdr0 (t : shape_type) : header := set_type_box header_default t sentinel_box.

(** The shape of the list [write_shape_plan] issues, the chunk lists left open:
    no proof about it meets [header_chunks] or [record_chunks]. *)
Definition plan_skel (hs first int : bool) (hc : chunks) (pc : dest -> chunks) : list (dest * wop) :=
  (if first then (Shp, WSeekStart 0) :: on Shp hc ++ (if hs then (Shx, WSeekStart 0) :: on Shx hc else []) else [])
  ++ (if int then (Shp, WSeekEnd) :: (if hs then [(Shx, WSeekEnd)] else []) else [])
  ++ on Shp (pc Shp) ++ (if hs then on Shx (pc Shx) else []).

(* [ops_of t] of an interleaving of single operations and [on _ cs] blocks, for
   concrete destinations: distribute over [++] and filter block by block. *)
Ltac ops_norm :=
  repeat progress (cbn [ops_of dest_eqb app]; rewrite ?ops_of_app, ?ops_of_on); rewrite ?app_nil_r.

Lemma wf_seek0_on t cs rest : Forall (fun o => op_wf (snd o)) rest ->
  Forall (fun o => op_wf (snd o)) ((t, WSeekStart 0) :: on t cs ++ rest).
Proof. intros H. constructor; [cbn; lia|]. apply Forall_app; split; [apply Forall_on_wf|exact H]. Qed.

(* [Forall op_wf] of such a list, item by item. *)
Ltac wf_ops :=
  repeat first [ apply Forall_nil | apply Forall_on_wf
               | apply Forall_cons; [cbn; first [exact I | lia]|]
               | apply Forall_app; split ].

Lemma ops_of_skel t hs first int hc pc :
  ops_of t (plan_skel hs first int hc pc) = if dest_on hs t then dest_ops first int hc (pc t) else [].
Proof. unfold plan_skel, dest_ops. destruct t, hs, first, int; ops_norm; reflexivity. Qed.

Lemma plan_skel_wf hs first int hc pc : Forall (fun o => op_wf (snd o)) (plan_skel hs first int hc pc).
Proof. unfold plan_skel. destruct hs, first, int; wf_ops. Qed.

Lemma write_rejected st w ss s0 s :
  ws_hdr st = hdr_after (s0 :: ss) -> type_of s0 <> TNull -> st_eqb (type_of s0) (type_of s) = false ->
  w_write_shape st w s = (Err (EMismatch (type_of s0) (type_of s)), st, w).
Proof.
  intros Hh Hnn Hne. unfold w_write_shape, write_shape_plan.
  rewrite Hh, hdr_after_type, (st_eqb_neq _ _ Hnn), Hne. reflexivity.
Qed.

Lemma plan_accepted hs st ss s :
  ws_hdr st = hdr_after ss -> ws_recnum st = 1 + zlen ss -> ws_has_shx st = hs -> nonnull ss -> accepts_type ss s = true ->
  exists st0 st1,
    write_shape_plan st s =
      Ok (st0, plan_skel hs (is_nil ss) (ws_interrupted st) (header_chunks (hdr0 (type_of s))) (fun t => payload t ss s), st1)
    /\ ws_hdr st1 = hdr_after (ss ++ [s]) /\ ws_recnum st1 = 1 + zlen (ss ++ [s]) /\ ws_has_shx st1 = hs
    /\ ws_dirty st1 = true /\ ws_interrupted st1 = false.
Proof.
  intros Hh Hr Hhs Hss Ha. unfold write_shape_plan, plan_skel, payload, hdr0.
  rewrite (hdr_after_snoc ss s Ha), zlen_app, Hhs. destruct ss as [|s0 ss'].
  - rewrite Hh, Hr. cbn [hdr_after h_type header_default]. rewrite st_eqb_refl. do 2 eexists. split; [reflexivity|].
    cbn. repeat split; lia.
  - cbn [accepts_type] in Ha. pose proof (hdr_after_type (s0 :: ss')) as Ht. cbn iota in Ht. rewrite <- Hh in Ht.
    pose proof (hdr_after_len (s0 :: ss')) as Hl. rewrite <- Hh in Hl.
    rewrite Ht, (st_eqb_neq _ _ (Forall_inv Hss)), Ha. apply st_eqb_eq in Ha.
    cbn [negb andb is_nil]. rewrite Ht, Hl, Ha, Hr. do 2 eexists. split; [reflexivity|].
    cbn [ws_hdr ws_recnum ws_has_shx ws_dirty ws_interrupted]. change (zlen [s]) with 1.
    split; [unfold hdr_step; rewrite <- Hh, Hl; reflexivity|]. repeat split; lia.
Qed.

Lemma write_shape_run hs st w ss s :
  world_wf w -> ws_hdr st = hdr_after ss -> ws_recnum st = 1 + zlen ss -> ws_has_shx st = hs ->
  nonnull ss -> accepts_type ss s = true ->
  exists st' w', w_write_shape st w s = (Ok tt, st', w') /\ world_wf w' /\
    (forall t, advances (get_dev w t) (get_dev w' t)
       (if dest_on hs t
        then dest_ops (is_nil ss) (ws_interrupted st) (header_chunks (hdr0 (type_of s))) (payload t ss s) else [])) /\
    ws_hdr st' = hdr_after (ss ++ [s]) /\ ws_recnum st' = 1 + zlen (ss ++ [s]) /\ ws_has_shx st' = hs /\
    ws_dirty st' = true /\ ws_interrupted st' = false.
Proof.
  intros Hwf Hh Hr Hhs Hss Ha.
  destruct (plan_accepted hs st ss s Hh Hr Hhs Hss Ha) as (st0 & st1 & Ep & Hst1).
  unfold w_write_shape. rewrite Ep. set (ops := plan_skel _ _ _ _ _).
  destruct (run_ops_ok ops w Hwf (plan_skel_wf _ _ _ _ _)) as (w' & R & Hwf' & Adv). rewrite R.
  exists st1, w'. split; [reflexivity|]. split; [exact Hwf'|]. split; [|exact Hst1].
  intros t. rewrite <- (ops_of_skel t _ _ _ _ (fun t => payload t ss s)). apply Adv.
Qed.

Lemma write_accepted_ready hs st w ss s :
  Ready hs st w ss -> nonnull ss -> accepts_type ss s = true ->
  exists st' w', w_write_shape st w s = (Ok tt, st', w') /\ WInv hs st' w' (ss ++ [s]).
Proof.
  intros [Hwf Hh Hr Hhs Hdev Hnox] Hss Ha.
  destruct (write_shape_run hs st w ss s Hwf Hh Hr Hhs Hss Ha) as (st' & w' & E & Hwf' & Adv & Hh' & Hr' & Hhs' & Hd' & Hi').
  exists st', w'. split; [exact E|]. apply WInv_intro; try assumption.
  - intros t Ht. destruct (Hdev t Ht) as [Hb Hp]. pose proof (advances_bp _ _ _ (Adv t)) as B. rewrite Ht in B.
    destruct (bp_dest_ops _ _ _ _ (hdr0 (type_of s)) (payload t ss s) Hb Hp (stream_is_nil t ss)) as (H & Hl & Hf).
    exists H. rewrite stream_snoc, B. split; [exact Hf|]. split; [apply hdr_slot_full, Hl|]. rewrite Hd'. discriminate.
  - intros ->. exact (eq_trans (advances_bp _ _ _ (Adv Shx)) (Hnox eq_refl)).
Qed.

Lemma write_accepted hs st w ss s :
  WInv hs st w ss -> Forall (fun x => type_of x <> TNull) ss -> accepts_type ss s = true ->
  exists st' w', w_write_shape st w s = (Ok tt, st', w') /\ WInv hs st' w' (ss ++ [s]).
Proof. intros Inv. apply write_accepted_ready, WInv_Ready, Inv. Qed.

Lemma finalize_ops_wf st : Forall (fun o => op_wf (snd o)) (finalize_ops st).
Proof. unfold finalize_ops. destruct (ws_has_shx st); wf_ops. Qed.

Lemma final_header_inv st ss : ws_hdr st = hdr_after ss -> final_header st = final_hdr ss.
Proof. intros H. unfold final_header, final_hdr. rewrite H. reflexivity. Qed.

Lemma shx_header_inv st ss : ws_hdr st = hdr_after ss -> ws_recnum st = 1 + zlen ss ->
  shx_header st = final_shx_hdr ss.
Proof.
  intros H Hr. unfold shx_header, final_shx_hdr. rewrite (final_header_inv st ss H), Hr.
  replace (1 + zlen ss - 1) with (zlen ss) by lia. reflexivity.
Qed.

Lemma finalize_ops_of t hs st ss :
  ws_hdr st = hdr_after ss -> ws_recnum st = 1 + zlen ss -> ws_has_shx st = hs ->
  ops_of t (finalize_ops st) = if dest_on hs t then fin_ops (final_hdr_at t ss) else [].
Proof.
  intros Hh Hr Hhs. unfold finalize_ops, fin_ops. rewrite (final_header_inv st ss Hh), (shx_header_inv st ss Hh Hr), Hhs.
  destruct t; cbn [final_hdr_at dest_on]; generalize (header_chunks (final_hdr ss)) (header_chunks (final_shx_hdr ss));
    intros c1 c2; destruct hs; ops_norm; reflexivity.
Qed.

Lemma finalize_run hs st w ss :
  world_wf w -> ws_hdr st = hdr_after ss -> ws_recnum st = 1 + zlen ss -> ws_has_shx st = hs -> ws_dirty st = true ->
  exists w', w_finalize st w = (Ok tt, mkw (ws_hdr st) (ws_recnum st) false (ws_has_shx st) false, w') /\ world_wf w' /\
    forall t, advances (get_dev w t) (get_dev w' t) (if dest_on hs t then fin_ops (final_hdr_at t ss) else []) /\
              (dest_on hs t = true -> d_flushed (get_dev w' t) = true).
Proof.
  intros Hwf Hh Hr Hhs Hd. unfold w_finalize. rewrite Hd. cbn [negb].
  destruct (run_ops_ok _ w Hwf (finalize_ops_wf st)) as (w' & R & Hwf' & Adv). rewrite R.
  exists w'. split; [reflexivity|]. split; [exact Hwf'|]. intros t. destruct (Adv t) as [A F].
  rewrite (finalize_ops_of t hs st ss Hh Hr Hhs) in A, F. split; [exact A|]. intros Ht. rewrite F, Ht.
  unfold fin_ops. rewrite app_comm_cons. apply last_is_flush_finalize.
Qed.

Lemma finalize_ready hs st w ss : Ready hs st w ss -> ws_dirty st = true ->
  exists st' w', w_finalize st w = (Ok tt, st', w') /\ WInv hs st' w' ss /\ ws_dirty st' = false.
Proof.
  intros [Hwf Hh Hr Hhs Hdev Hnox] Hd.
  destruct (finalize_run hs st w ss Hwf Hh Hr Hhs Hd) as (w' & E & Hwf' & Adv).
  do 2 eexists. split; [exact E|]. split; [|reflexivity]. apply WInv_intro; try assumption; try reflexivity.
  - intros t Ht. destruct (Hdev t Ht) as [Hb _]. destruct (Adv t) as [A F]. apply advances_bp in A. rewrite Ht in A.
    exists (header_bytes (final_hdr_at t ss)). rewrite A, <- Hb.
    split; [apply bp_fin_ops|]. split; [apply hdr_slot_full, header_bytes_len|]. intros _. split; [reflexivity|apply F, Ht].
  - intros ->. exact (eq_trans (advances_bp _ _ _ (proj1 (Adv Shx))) (Hnox eq_refl)).
Qed.

Lemma finalize_step hs st w ss : WInv hs st w ss ->
  exists st' w', w_finalize st w = (Ok tt, st', w') /\ WInv hs st' w' ss /\ ws_dirty st' = false.
Proof.
  intros Inv. destruct (ws_dirty st) eqn:Hd; [exact (finalize_ready hs st w ss (WInv_Ready _ _ _ _ Inv) Hd)|].
  exists st, w. unfold w_finalize. rewrite Hd. auto.
Qed.

Lemma finalize_clean_silent st w : ws_dirty st = false -> w_finalize st w = (Ok tt, st, w).
Proof. intros H. unfold w_finalize. rewrite H. reflexivity. Qed.

Lemma clean_files hs st w ss : WInv hs st w ss -> ws_dirty st = false ->
  d_buf (w_shp w) = final_shp ss /\ d_flushed (w_shp w) = true /\
  (if hs then d_buf (w_shx w) = final_shx ss /\ d_flushed (w_shx w) = true else d_buf (w_shx w) = []).
Proof.
  intros Inv Hd. destruct (WInv_dev hs st w ss Shp Inv eq_refl) as (H & [Hb _] & _ & Hc). destruct (Hc Hd) as [-> Hf].
  split; [exact Hb|]. split; [exact Hf|]. destruct hs.
  - destruct (WInv_dev true st w ss Shx Inv eq_refl) as (H & [Hbx _] & _ & Hcx). destruct (Hcx Hd) as [-> Hfx].
    split; [exact Hbx|exact Hfx].
  - exact (f_equal fst (inv_shx _ _ _ _ Inv)).
Qed.

Fixpoint accepted_acc (ss : list shape) (cs : list wcall) : list shape :=
  match cs with
  | [] => ss
  | CWrite s :: r => if accepts_type ss s then accepted_acc (ss ++ [s]) r else accepted_acc ss r
  | _ :: r => accepted_acc ss r
  end.

Fixpoint expected_results (ss : list shape) (cs : list wcall) : list (res unit) :=
  match cs with
  | [] => []
  | CWrite s :: r =>
      if accepts_type ss s then Ok tt :: expected_results (ss ++ [s]) r
      else Err (EMismatch (match ss with s0 :: _ => type_of s0 | [] => TNull end) (type_of s))
           :: expected_results ss r
  | _ :: r => Ok tt :: expected_results ss r
  end.

(** [CHeal] is not a call of the library but the test harness clearing the
    fault plans ([heal]); it occurs only in the histories with faults of C12.
    Null shapes are left out because `write_shape` takes a writer whose file
    type is Null for one that has written nothing, and writes the header again. *)
Definition call_ok (c : wcall) : Prop :=
  match c with CWrite s => type_of s <> TNull | CFinalize => True | CHeal => False end.

(** Accepted writes and finalize calls maintain [P] (rejected writes change
    nothing: [write_rejected]); then [P] holds along every history
    ([run_calls_closed]) and, after the drop, at its end ([ending_closed]).
    Used with [WInv], with [WInv] and a crash invariant ([closed_with]), and
    with [Live] (WriterRecover.v). *)
Definition step_closed (P : wstate -> world -> list shape -> Prop) : Prop :=
  (forall st w ss, P st w ss -> ws_hdr st = hdr_after ss) /\
  (forall st w ss s, P st w ss -> nonnull ss -> accepts_type ss s = true ->
     exists st' w', w_write_shape st w s = (Ok tt, st', w') /\ P st' w' (ss ++ [s])) /\
  (forall st w ss, P st w ss -> exists st' w', w_finalize st w = (Ok tt, st', w') /\ P st' w' ss).

Lemma run_calls_closed P : step_closed P -> forall cs st w ss,
  P st w ss -> nonnull ss -> Forall call_ok cs ->
  exists st' w', run_calls cs st w = (expected_results ss cs, st', w') /\
    P st' w' (accepted_acc ss cs) /\ nonnull (accepted_acc ss cs).
Proof.
  intros (Hhdr & Hwrite & Hfin). induction cs as [|c cs IH]; intros st w ss HP Hss Hcs.
  - exists st, w. auto.
  - inversion Hcs as [|? ? Hc Hcs']; subst. cbn [run_calls accepted_acc expected_results].
    destruct c as [s| |]; cbn [call_ok] in Hc; [|destruct (Hfin st w ss HP) as (st1 & w1 & E & HP1)|contradiction].
    + destruct (accepts_type ss s) eqn:Ha.
      * destruct (Hwrite st w ss s HP Hss Ha) as (st1 & w1 & E & HP1). rewrite E.
        destruct (IH st1 w1 (ss ++ [s]) HP1) as (st2 & w2 & E2 & H2); [apply Forall_app; auto|exact Hcs'|].
        rewrite E2. eauto.
      * destruct ss as [|s0 ss']; [discriminate|]. cbn [accepts_type] in Ha.
        rewrite (write_rejected st w ss' s0 s (Hhdr _ _ _ HP) (Forall_inv Hss) Ha).
        destruct (IH st w (s0 :: ss') HP Hss Hcs') as (st2 & w2 & E2 & H2). rewrite E2. eauto.
    + rewrite E. destruct (IH st1 w1 ss HP1 Hss Hcs') as (st2 & w2 & E2 & H2). rewrite E2. eauto.
Qed.

Lemma ending_closed P (Q : world -> list shape -> Prop) :
  step_closed P -> (forall st w ss, P st w ss -> Q (w_drop st w) ss) ->
  forall hs w0 cs e rs st w ss, run_calls cs (w_new hs) w0 = (rs, st, w) -> P st w ss ->
  Q (snd (run_history hs w0 cs e)) ss.
Proof.
  intros (_ & _ & Hfin) HQ hs w0 cs e rs st w ss E HP. unfold run_history. rewrite E. destruct e; [apply HQ, HP|].
  destruct (Hfin st w ss HP) as (st' & w' & E' & HP'). rewrite E'. apply HQ, HP'.
Qed.

Lemma run_history_closed P (Q : world -> list shape -> Prop) hs w0 :
  step_closed P -> (forall st w ss, P st w ss -> Q (w_drop st w) ss) -> P (w_new hs) w0 [] ->
  forall cs e, Forall call_ok cs -> Q (snd (run_history hs w0 cs e)) (accepted_acc [] cs).
Proof.
  intros HP HQ H0 cs e Hcs.
  destruct (run_calls_closed P HP cs _ _ [] H0 (Forall_nil _) Hcs) as (st & w & E & HPst & _).
  exact (ending_closed P Q HP HQ hs w0 cs e _ st w _ E HPst).
Qed.

Lemma WInv_closed hs : step_closed (WInv hs).
Proof.
  split; [intros st w ss Inv; apply Inv|]. split; [exact (write_accepted hs)|].
  intros st w ss Inv. destruct (finalize_step hs st w ss Inv) as (st' & w' & E & Inv' & _). eauto.
Qed.

Lemma closed_with hs (J : world -> list shape -> Prop) :
  (forall st w ss s, WInv hs st w ss -> J w ss -> nonnull ss -> accepts_type ss s = true ->
     J (snd (w_write_shape st w s)) (ss ++ [s])) ->
  (forall st w ss, WInv hs st w ss -> J w ss -> J (snd (w_finalize st w)) ss) ->
  step_closed (fun st w ss => WInv hs st w ss /\ J w ss).
Proof.
  intros Jw Jf. split; [intros st w ss [Inv _]; apply Inv|]. split.
  - intros st w ss s [Inv HJ] Hss Ha. specialize (Jw st w ss s Inv HJ Hss Ha).
    destruct (write_accepted hs st w ss s Inv Hss Ha) as (st' & w' & E & Inv'). rewrite E in Jw. eauto.
  - intros st w ss [Inv HJ]. specialize (Jf st w ss Inv HJ).
    destruct (finalize_step hs st w ss Inv) as (st' & w' & E & Inv' & _). rewrite E in Jf. eauto.
Qed.

Lemma drop_files hs st w ss : WInv hs st w ss ->
  d_buf (w_shp (w_drop st w)) = final_shp ss /\
  d_buf (w_shx (w_drop st w)) = (if hs then final_shx ss else []) /\
  d_flushed (w_shp (w_drop st w)) = true.
Proof.
  intros Inv. unfold w_drop. destruct (finalize_step hs st w ss Inv) as (st1 & w1 & E & Inv1 & Hd). rewrite E. cbn [snd].
  destruct (clean_files hs st1 w1 ss Inv1 Hd) as (H1 & H2 & H3). split; [exact H1|]. split; [|exact H2].
  destruct hs; [apply H3|exact H3].
Qed.

Definition files (w : world) : bytes * bytes := (d_buf (w_shp w), d_buf (w_shx w)).

Theorem history_files hs cs e : Forall call_ok cs ->
  files (snd (run_history hs world0 cs e))
  = (final_shp (accepted_acc [] cs), if hs then final_shx (accepted_acc [] cs) else []).
Proof.
  apply (run_history_closed (WInv hs) (fun w ss => files w = (final_shp ss, if hs then final_shx ss else [])));
    [apply WInv_closed| |apply WInv_init].
  intros st w ss Inv. destruct (drop_files hs st w ss Inv) as (H1 & H2 & _). unfold files. rewrite H1, H2. reflexivity.
Qed.

Definition is_write (c : wcall) : bool := match c with CWrite _ => true | _ => false end.

Lemma accepted_acc_filter ss cs : accepted_acc ss (filter is_write cs) = accepted_acc ss cs.
Proof.
  revert ss; induction cs as [|c cs IH]; intros ss; [reflexivity|].
  destruct c as [s| |]; cbn [filter is_write accepted_acc]; [destruct (accepts_type ss s); apply IH|apply IH|apply IH].
Qed.

Lemma call_ok_filter cs : Forall call_ok cs -> Forall call_ok (filter is_write cs).
Proof.
  induction 1 as [|c cs Hc Hcs IH]; [constructor|]. destruct c; cbn [filter is_write]; auto.
Qed.

Fixpoint remove_rejected (ss : list shape) (cs : list wcall) : list wcall :=
  match cs with
  | [] => []
  | CWrite s :: r => if accepts_type ss s then CWrite s :: remove_rejected (ss ++ [s]) r else remove_rejected ss r
  | c :: r => c :: remove_rejected ss r
  end.

Lemma accepted_acc_remove ss cs : accepted_acc ss (remove_rejected ss cs) = accepted_acc ss cs.
Proof.
  revert ss; induction cs as [|c cs IH]; intros ss; [reflexivity|].
  destruct c as [s| |]; cbn [remove_rejected accepted_acc].
  - destruct (accepts_type ss s) eqn:Ha; [cbn [accepted_acc]; rewrite Ha|]; apply IH.
  - apply IH.
  - apply IH.
Qed.

Lemma call_ok_remove ss cs : Forall call_ok cs -> Forall call_ok (remove_rejected ss cs).
Proof.
  intros H; revert ss; induction H as [|c cs Hc Hcs IH]; intros ss; [constructor|].
  destruct c as [s| |]; cbn [remove_rejected]; [destruct (accepts_type ss s)|..]; auto.
Qed.
