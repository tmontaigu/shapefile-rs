(** The bulk helpers (`write_shapes(self, tail)`, and the complete writer's
    `write_shapes_and_records`) are the single calls on the items, one by one,
    up to and including the first that fails: proved once, for any single
    call, and instantiated in C10_bulk_is_calls and C10_complete_bulk_is_calls. *)
From SF Require Import Model.Bytes Model.Shapes Model.Res Model.Writer.
Open Scope Z_scope.

(** A bulk helper over any single call [step]: [calls] runs the call on every
    item, [bulk] stops after the first failure, [offered] counts the items
    [bulk] offers.  The three are given by their unfolding equations, so that
    the model's own fixpoints are instances. *)
Section Bulk.
  Variables (St Wd X : Type) (step : St -> Wd -> X -> res unit * St * Wd).
  Variables (calls : list X -> St -> Wd -> list (res unit) * St * Wd) (bulk : list X -> St -> Wd -> res unit * St * Wd)
            (offered : list X -> St -> Wd -> nat).
  Hypothesis calls_nil : forall st w, calls [] st w = ([], st, w).
  Hypothesis calls_cons : forall x r st w,
    calls (x :: r) st w = let '(res, st', w') := step st w x in let '(rs, st'', w'') := calls r st' w' in (res :: rs, st'', w'').
  Hypothesis bulk_nil : forall st w, bulk [] st w = (Ok tt, st, w).
  Hypothesis bulk_cons : forall x r st w,
    bulk (x :: r) st w = let '(res, st', w') := step st w x in match res with Ok _ => bulk r st' w' | _ => (res, st', w') end.
  Hypothesis offered_nil : forall st w, offered [] st w = O.
  Hypothesis offered_cons : forall x r st w,
    offered (x :: r) st w = let '(res, st', w') := step st w x in match res with Ok _ => S (offered r st' w') | _ => 1%nat end.

  Lemma offered_pos x r st w : (1 <= offered (x :: r) st w)%nat.
  Proof. rewrite offered_cons. destruct (step st w x) as [[res st'] w']. destruct res; lia. Qed.

  Theorem bulk_is_calls_gen xs : forall st w,
    let '(rs, st1, w1) := calls (firstn (offered xs st w) xs) st w in
    bulk xs st w = (last rs (Ok tt), st1, w1) /\
    length rs = offered xs st w /\
    Forall (fun r => r = Ok tt) (removelast rs) /\
    ((offered xs st w < length xs)%nat -> last rs (Ok tt) <> Ok tt).
  Proof.
    induction xs as [|x r IH]; intros st w.
    - rewrite offered_nil, bulk_nil. cbn [firstn]. rewrite calls_nil. cbn. split; [reflexivity|split; [reflexivity|split; [constructor|lia]]].
    - rewrite offered_cons, bulk_cons. destruct (step st w x) as [[res st'] w'] eqn:E. destruct res as [[]|e|].
      + cbn [firstn]. rewrite calls_cons, E. specialize (IH st' w').
        destruct (calls (firstn (offered r st' w') r) st' w') as [[rs st1] w1].
        destruct IH as (H1 & Hlen & H2 & H3). cbn [length]. split; [|split; [|split]].
        * rewrite H1. destruct rs; reflexivity.
        * rewrite Hlen. reflexivity.
        * destruct rs as [|y rs]; [constructor|]. cbn [removelast]. constructor; [reflexivity|exact H2].
        * intros Hlt. destruct rs as [|y rs]; [|apply H3; lia].
          exfalso. cbn [length] in Hlen. destruct r as [|x2 r2]; [cbn in Hlt; lia|].
          pose proof (offered_pos x2 r2 st' w'). lia.
      + cbn [firstn]. rewrite calls_cons, E, calls_nil. cbn. split; [reflexivity|split; [reflexivity|split; [constructor|discriminate]]].
      + cbn [firstn]. rewrite calls_cons, E, calls_nil. cbn. split; [reflexivity|split; [reflexivity|split; [constructor|discriminate]]].
  Qed.
End Bulk.

(** The number of tail shapes the helper offers to the writer: all of them, or
    up to and including the first whose write fails. *)
Fixpoint bulk_offered (ss : list shape) (st : wstate) (w : world) : nat :=
  match ss with
  | [] => O
  | s :: r =>
      let '(res, st', w') := w_write_shape st w s in
      match res with Ok _ => S (bulk_offered r st' w') | _ => 1%nat end
  end.

Lemma bulk_offered_le ss : forall st w, (bulk_offered ss st w <= length ss)%nat.
Proof.
  induction ss as [|s r IH]; intros st w; cbn [bulk_offered length]; [lia|].
  destruct (w_write_shape st w s) as [[res st'] w']. destruct res; [specialize (IH st' w')|..]; lia.
Qed.

Lemma run_calls_app cs1 : forall cs2 st w,
  run_calls (cs1 ++ cs2) st w =
  let '(rs1, st1, w1) := run_calls cs1 st w in
  let '(rs2, st2, w2) := run_calls cs2 st1 w1 in (rs1 ++ rs2, st2, w2).
Proof.
  induction cs1 as [|c cs1 IH]; intros cs2 st w; cbn [app run_calls].
  - destruct (run_calls cs2 st w) as [[rs2 st2] w2]. reflexivity.
  - destruct (match c with CWrite s => w_write_shape st w s | CFinalize => w_finalize st w | CHeal => (Ok tt, st, heal w) end)
      as [[r st'] w']. rewrite IH.
    destruct (run_calls cs1 st' w') as [[rs1 st1] w1]. destruct (run_calls cs2 st1 w1) as [[rs2 st2] w2]. reflexivity.
Qed.

Lemma run_calls_length cs : forall st w, length (fst (fst (run_calls cs st w))) = length cs.
Proof.
  induction cs as [|c cs IH]; intros st w; [reflexivity|]. cbn [run_calls].
  destruct (match c with CWrite s => w_write_shape st w s | CFinalize => w_finalize st w | CHeal => (Ok tt, st, heal w) end)
    as [[r st'] w']. specialize (IH st' w'). destruct (run_calls cs st' w') as [[rs st''] w'']. cbn [fst length] in *. rewrite IH. reflexivity.
Qed.
