(** C16: what closing ([close_points]) and reordering ([reorder]) do to one
    ring, and that a polygon rebuilt from closed rings whose roles agree with
    the orientation test is the same polygon. *)
From SF Require Import Model.Bytes Model.F64 Model.Shapes Model.Res Model.F64Arith Model.Construct.
From SF Require Import Proofs.F64Order Proofs.BoxExact.
Open Scope Z_scope.

Lemma f64_eq_refl a : nn a -> f64_eq a a = true.
Proof. unfold nn, f64_eq. intros ->. cbn. apply Z.eqb_refl. Qed.

Lemma f64_eq_sym a b : f64_eq a b = f64_eq b a.
Proof. unfold f64_eq. rewrite (Z.eqb_sym (f64_key a)). destruct (f64_is_nan a), (f64_is_nan b); reflexivity. Qed.

Definition pt_nn (d : dim) (p : pt) : Prop := forall c, dim_has d c = true -> nn (get c p).

Lemma pt_eq_iff d a b : pt_eq d a b = true <-> forall c, dim_has d c = true -> f64_eq (get c a) (get c b) = true.
Proof.
  split.
  - intros H c Hc. destruct d, c; cbn in Hc; try discriminate; cbn [pt_eq get] in *; rewrite !andb_true_iff in H; tauto.
  - intros H. pose proof (H CX) as Hx. pose proof (H CY) as Hy. pose proof (H CZ) as Hz. pose proof (H CM) as Hm.
    destruct d; cbn in *; rewrite Hx, Hy, ?Hz, ?Hm by reflexivity; reflexivity.
Qed.

Lemma pt_eq_refl d p : pt_nn d p -> pt_eq d p p = true.
Proof. intros H. apply pt_eq_iff. intros c Hc. apply f64_eq_refl, H, Hc. Qed.

Lemma pt_eq_sym d a b : pt_eq d a b = pt_eq d b a.
Proof. apply eq_true_iff_eq. rewrite !pt_eq_iff. split; intros H c Hc; rewrite f64_eq_sym; apply H, Hc. Qed.

Theorem close_points_closed d ps : ps <> [] -> pt_nn d (hd pt0 ps) -> is_part_closed d (close_points d ps) = true.
Proof.
  intros Hne Hn. unfold close_points. destruct (is_part_closed d ps) eqn:E; [exact E|].
  destruct ps as [|p0 r]; [contradiction|]. cbn [hd] in Hn.
  change ((p0 :: r) ++ [p0]) with (p0 :: (r ++ [p0])). cbn [is_part_closed].
  change (p0 :: r ++ [p0]) with ((p0 :: r) ++ [p0]). rewrite last_last. apply pt_eq_refl, Hn.
Qed.

Lemma close_points_nonempty d ps : ps <> [] -> close_points d ps <> [].
Proof. unfold close_points. destruct (is_part_closed d ps), ps; try discriminate; auto. Qed.

Lemma hd_rev_last {A} (l : list A) d0 : hd d0 (rev l) = last l d0.
Proof.
  induction l as [|x l' _] using rev_ind; [reflexivity|]. rewrite rev_app_distr, last_last. reflexivity.
Qed.

Lemma last_rev_hd {A} (l : list A) d0 : last (rev l) d0 = hd d0 l.
Proof. rewrite <- (rev_involutive l) at 2. rewrite hd_rev_last. reflexivity. Qed.

Lemma last_indep {A} (l : list A) a b : l <> [] -> last l a = last l b.
Proof. induction l as [|x l IH]; [contradiction|]. intros _. destruct l; [reflexivity|]. cbn [last]. apply IH. discriminate. Qed.

Lemma is_part_closed_alt d ps : ps <> [] -> is_part_closed d ps = pt_eq d (hd pt0 ps) (last ps pt0).
Proof.
  destruct ps as [|p0 r]; [contradiction|]. intros _. cbn [is_part_closed hd].
  rewrite (last_indep (p0 :: r) p0 pt0) by discriminate. reflexivity.
Qed.

Theorem rev_keeps_closed d ps : is_part_closed d ps = true -> is_part_closed d (rev ps) = true.
Proof.
  intros H. destruct ps as [|p0 r]; [discriminate|].
  assert (Hne : rev (p0 :: r) <> []) by (intros E; apply (f_equal (@length pt)) in E; rewrite rev_length in E; discriminate).
  rewrite is_part_closed_alt by exact Hne. rewrite hd_rev_last, last_rev_hd. cbn [hd].
  rewrite pt_eq_sym. cbn [is_part_closed] in H. rewrite (last_indep (p0 :: r) pt0 p0) by discriminate. exact H.
Qed.

Lemma role_eqb_true a b : role_eqb a b = true <-> a = b.
Proof. destruct a, b; cbn; split; intros H; try reflexivity; discriminate. Qed.

Lemma reorder_cases r ps : reorder r ps = ps \/ reorder r ps = rev ps.
Proof. unfold reorder. destruct (role_eqb _ _); auto. Qed.

Lemma reorder_keeps r ps : ring_role ps = r -> reorder r ps = ps.
Proof. intros <-. unfold reorder. rewrite (proj2 (role_eqb_true _ _) eq_refl). reflexivity. Qed.

(** Of a ring and its mirror image that the orientation test tells apart, one has the role [r]. *)
Lemma reorder_oriented r ps : ring_role (rev ps) <> ring_role ps -> ring_role (reorder r ps) = r.
Proof.
  intros Hflip. unfold reorder. destruct (role_eqb r (ring_role ps)) eqn:E.
  - apply role_eqb_true in E. symmetry. exact E.
  - destruct r, (ring_role ps), (ring_role (rev ps)); cbn in E; try discriminate; try reflexivity; congruence.
Qed.

Lemma reorder_closed d r ps : is_part_closed d ps = true -> is_part_closed d (reorder r ps) = true.
Proof. intros H. destruct (reorder_cases r ps) as [-> | ->]; [exact H|apply rev_keeps_closed, H]. Qed.

Theorem close_and_reorder_closed d ring : snd ring <> [] -> pt_nn d (hd pt0 (snd ring)) ->
  is_part_closed d (snd (close_and_reorder d ring)) = true.
Proof. intros Hne Hn. apply reorder_closed, close_points_closed; assumption. Qed.

Lemma close_and_reorder_nonempty d ring : snd ring <> [] -> snd (close_and_reorder d ring) <> [].
Proof.
  intros Hne E. apply (close_points_nonempty d _ Hne). cbn [close_and_reorder snd] in E.
  destruct (reorder_cases (fst ring) (close_points d (snd ring))) as [Er|Er]; rewrite Er in E; [exact E|].
  rewrite <- (rev_involutive (close_points d (snd ring))), E. reflexivity.
Qed.

Theorem close_and_reorder_oriented d ring :
  let c := close_points d (snd ring) in
  ring_role (rev c) <> ring_role c ->
  ring_role (snd (close_and_reorder d ring)) = fst ring.
Proof. apply reorder_oriented. Qed.

Theorem close_and_reorder_fixpoint d ring :
  is_part_closed d (snd ring) = true -> ring_role (snd ring) = fst ring -> close_and_reorder d ring = ring.
Proof.
  intros Hc Hr. unfold close_and_reorder, close_points. rewrite Hc, (reorder_keeps _ _ Hr). destruct ring; reflexivity.
Qed.

Definition rings_of (s : shape) : list (role * list pt) := match s with SPolygon _ _ rings => rings | _ => [] end.

Theorem mk_polygon_rings d rings s : mk_polygon d rings = Ok s -> rings_of s = map (close_and_reorder d) rings.
Proof. intros H. apply mk_polygon_inv in H. destruct H as (b & _ & ->). reflexivity. Qed.

Lemma map_close_and_reorder_fixpoint d rings :
  Forall (fun r => is_part_closed d (snd r) = true /\ ring_role (snd r) = fst r) rings ->
  map (close_and_reorder d) rings = rings.
Proof.
  induction 1 as [|r l [Hc Ho] _ IH]; [reflexivity|]. cbn [map]. rewrite IH, close_and_reorder_fixpoint by assumption. reflexivity.
Qed.

Theorem mk_polygon_idempotent d rings s :
  mk_polygon d rings = Ok s ->
  Forall (fun r => is_part_closed d (snd r) = true /\ ring_role (snd r) = fst r) (rings_of s) ->
  mk_polygon d (rings_of s) = Ok s.
Proof.
  intros H Hall. apply mk_polygon_inv in H. destruct H as (b & Hb & ->). cbn [rings_of] in *.
  rewrite mk_polygon_parts, (map_close_and_reorder_fixpoint d _ Hall), Hb. reflexivity.
Qed.

Definition patches_of (s : shape) : list (pkind * list pt) := match s with SMultipatch _ ps => ps | _ => [] end.
