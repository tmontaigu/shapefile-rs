(** Panic-freedom of reading programs: a program in which `PanicP` is not
    reachable (the source never answers with a panic) never returns Panic, on
    any source: any bytes, any position, any injected fault. *)
From SF Require Import Model.Res Model.Prog.
From SF Require Import Proofs.ProgLemmas.
Open Scope Z_scope.

Inductive np {A} : prog A -> Prop :=
| np_ret a : np (Ret a)
| np_fail e : np (Fail e)
| np_take n k : (forall r, r <> Panic -> np (k r)) -> np (Take n k)
| np_seek_start q k : (forall r, r <> Panic -> np (k r)) -> np (SeekStart q k)
| np_seek_end k : (forall r, r <> Panic -> np (k r)) -> np (SeekEnd k)
| np_reserve n k : np k -> np (Reserve n k).

Theorem np_run {A} (p : prog A) : np p -> forall s, fst (run p s) <> Panic.
Proof.
  induction 1 as [a|e|n k Hk IH|q k Hk IH|k Hk IH|n k Hk IH]; intros s; cbn [run]; try discriminate.
  - destruct (do_take_frame n s) as [H _]. destruct (do_take n s) as [r s']. apply IH, H.
  - destruct (do_seek_start_frame q s) as [H _]. destruct (do_seek_start q s) as [r s']. apply IH, H.
  - destruct (do_seek_end_frame s) as [H _]. destruct (do_seek_end s) as [r s']. apply IH, H.
  - apply IH.
Qed.

Lemma np_bind {A B} (p : prog A) (f : A -> prog B) : np p -> (forall a, np (f a)) -> np (bind p f).
Proof. intros Hp Hf; induction Hp; cbn [bind]; try constructor; auto. Qed.

Lemma np_catch {A} (p : prog A) : np p -> np (catch p).
Proof. induction 1; cbn [catch]; constructor; auto. Qed.

Lemma np_lift_res {A} (r : res A) : r <> Panic -> np (lift_res r).
Proof. destruct r; cbn; intros H; [constructor|constructor|contradiction]. Qed.

Lemma np_take_ n : np (take n). Proof. constructor. intros; apply np_lift_res; assumption. Qed.
Lemma np_seek_start_ q : np (seek_start q). Proof. constructor. intros; apply np_lift_res; assumption. Qed.
Lemma np_seek_end_ : np seek_end. Proof. constructor. intros; apply np_lift_res; assumption. Qed.
Lemma np_reserve_ n : np (reserve n). Proof. repeat constructor. Qed.

Lemma run_catch_np {A} (p : prog A) s : np p -> exists r s', run (catch p) s = (Ok r, s') /\ r <> Panic /\ run p s = (r, s').
Proof.
  intros H. pose proof (np_run p H s) as N. rewrite run_catch.
  destruct (run p s) as [[a|e|] s']; [| |contradiction]; eexists; eexists; (split; [reflexivity|split; [discriminate|reflexivity]]).
Qed.
