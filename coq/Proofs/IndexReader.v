(** The reader with an index, for every history of calls: it refines the
    abstract reader (records, next position).  What is asked of the .shp bytes
    ([Indexed]) is that each index entry has a non-negative offset and points
    at the bytes of a conformant record, and that there are fewer than 2^63
    bytes: arbitrary filler, any physical order, overlaps are all allowed.
    Serves C04 (reader half), C14, C15 and the index routes of C01. *)
From SF Require Import Model.Bytes Model.ShapeType Model.Shapes Model.Res Model.Prog Model.Decode
  Model.Reader Spec.Esri Spec.Denote.
From SF Require Import Proofs.BytesLemmas Proofs.ProgLemmas Proofs.RecordL1 Proofs.ReaderSteps Proofs.ReaderSeq.
Open Scope Z_scope.

Definition stored_at (req : option shape_type) (data : bytes) (e : Z * Z) (nr : Z * ref_rec) : Prop :=
  0 <= fst e /\
  (exists rest, skipn (Z.to_nat (fst e * 2)) data = ref_record (fst nr) (snd nr) ++ rest) /\
  record_ok req nr.

Definition Indexed (req : option shape_type) (data : bytes) (idx : list (Z * Z)) (recs : list (Z * ref_rec)) : Prop :=
  Forall2 (stored_at req data) idx recs /\ zlen data < two63.

(** Between the calls of a reader with an index.  [ri_pos]: the position the
    reader remembers is the source's, or is [UNKNOWN_POSITION], which equals no
    offset, so that the next step seeks. *)
Record RInv (data : bytes) (idx : list (Z * Z)) (st : rstate) (s : src) : Prop := mkRInv {
  ri_clean : clean s;
  ri_data : s_data s = data;
  ri_index : r_index st = Some idx;
  ri_pos : r_cur st = s_pos s \/ r_cur st = UNKNOWN_POSITION;
  ri_next : 0 <= r_next st <= zlen idx
}.

Lemma stored_bound req data e nr : stored_at req data e nr ->
  fst e * 2 + zlen (ref_record (fst nr) (snd nr)) <= zlen data.
Proof.
  intros (_ & (rest & Hs) & _). exact (ref_record_inside data (fst e * 2) _ _ rest Hs).
Qed.

Lemma read_record_at req data e nr s :
  stored_at req data e nr -> clean s -> s_data s = data -> s_pos s = fst e * 2 ->
  exists s', run (read_one_shape req) s = (Ok ((fst nr, zlen (ref_content (snd nr)) / 2), denote (snd nr)), s')
             /\ clean s' /\ s_data s' = data /\ s_pos s' = fst e * 2 + zlen (ref_record (fst nr) (snd nr)).
Proof.
  intros (H0 & (rest & Hs) & Hok) Hcl Hd Hp.
  assert (Hr : s_rest s = ref_record (fst nr) (snd nr) ++ rest) by (rewrite s_rest_skipn, Hd, Hp; exact Hs).
  destruct (L1_record_ok req (fst nr) (snd nr) Hok s rest Hcl Hr) as (s' & Hrun & Hc' & Hd' & Hp').
  exists s'. split; [exact Hrun|]. split; [exact Hc'|]. split; [congruence|]. rewrite Hp', Hp. reflexivity.
Qed.

Lemma nth_error_in_range {A} (idx : list A) k : 0 <= k < zlen idx -> exists e, nth_error idx (Z.to_nat k) = Some e.
Proof.
  intros H. destruct (nth_error idx (Z.to_nat k)) eqn:E; [eauto|].
  apply nth_error_None in E. unfold zlen in H. lia.
Qed.

Lemma Forall2_nth {A B} (P : A -> B -> Prop) la lb n a :
  Forall2 P la lb -> nth_error la n = Some a -> exists b, nth_error lb n = Some b /\ P a b.
Proof.
  intros H; revert n; induction H as [|x y la lb Hxy H IH]; intros [|n] E; cbn in *; try discriminate.
  - injection E as <-. eauto.
  - apply IH, E.
Qed.

Lemma Forall2_zlen {A B} (P : A -> B -> Prop) la lb : Forall2 P la lb -> zlen la = zlen lb.
Proof. intros H. unfold zlen. f_equal. induction H; cbn [length]; congruence. Qed.

Definition shapes_of (recs : list (Z * ref_rec)) : list shape := map (fun nr => denote (snd nr)) recs.

(** ** Steps of the iteration on a source that holds the first [K] bytes of
    [data] (all of them when [K = zlen data]) *)
Lemma it_read_stored req data K idx e nr st s :
  stored_at req data e nr -> zlen data < two63 -> RInv (firstn (Z.to_nat K) data) idx st s ->
  s_pos s = fst e * 2 -> r_cur st = fst e * 2 ->
  exists st' s',
    run (it_read req st) s
    = (Ok (Some (if fst e * 2 + zlen (ref_record (fst nr) (snd nr)) <=? K then Ok (denote (snd nr)) else Err EIoEof), st'), s') /\
    RInv (firstn (Z.to_nat K) data) idx st' s' /\ r_next st' = r_next st /\ r_hdr st' = r_hdr st.
Proof.
  intros Hst Hbig Hinv Hp Hcur. pose proof (stored_bound _ _ _ _ Hst) as Hb. destruct nr as [num r].
  destruct Hst as (Hoff & (more & Hsk) & Hok). pose proof Hinv as [Hcl Hd Hidx _ Hnext]. cbn [fst snd] in *.
  rewrite <- Hp in Hsk. destruct (read_record_cut req data K num r more s Hok Hcl Hd Hsk) as (s' & Hc' & Hd' & Hrd).
  rewrite Hd in Hd'. rewrite Hp in Hrd. destruct (fst e * 2 + zlen (ref_record num r) <=? K).
  - destruct Hrd as [Hrun Hp']. pose proof (ref_content_even r). rewrite zlen_ref_record in *.
    rewrite (it_read_ok req st s _ _ s' Hrun) by (cbn [snd]; unfold two63, two64 in *; lia). cbn [snd].
    eexists. exists s'. split; [reflexivity|]. split; [|split; reflexivity].
    constructor; [exact Hc'|exact Hd'|exact Hidx|left; cbn [set_cur r_cur]; lia|exact Hnext].
  - rewrite (it_read_err req st s _ s' Hrd), Hidx.
    eexists. exists s'. split; [reflexivity|]. split; [|split; reflexivity].
    constructor; [exact Hc'|exact Hd'|exact Hidx|right; reflexivity|exact Hnext].
Qed.

Lemma it_next_index_cut req data K idx recs st s k :
  Indexed req data idx recs -> RInv (firstn (Z.to_nat K) data) idx st s -> r_next st = k -> k < zlen idx ->
  exists e nr, nth_error idx (Z.to_nat k) = Some e /\ nth_error recs (Z.to_nat k) = Some nr /\
    stored_at req data e nr /\ exists st' s',
    run (it_next req st) s
    = (Ok (Some (if fst e * 2 + zlen (ref_record (fst nr) (snd nr)) <=? K then Ok (denote (snd nr)) else Err EIoEof), st'), s') /\
    RInv (firstn (Z.to_nat K) data) idx st' s' /\ r_next st' = k + 1 /\ r_hdr st' = r_hdr st.
Proof.
  intros [HF Hbig] Hinv Hk Hlt. pose proof Hinv as [Hcl Hd Hidx Hpos Hnext].
  destruct (nth_error_in_range idx k) as [[off w] He]; [lia|].
  destruct (Forall2_nth _ _ _ _ _ HF He) as (nr & Hnr & Hst). pose proof Hst as (Hoff & _). cbn [fst] in Hoff.
  exists (off, w), nr. do 3 (split; [assumption|]).
  unfold it_next. rewrite Hidx, Hk, nth_entry_nonneg, He, offset_in_bytes_nonneg by lia.
  set (st1 := set_next st (k + 1)).
  destruct (Z.eqb_spec (off * 2) (r_cur st1)) as [E|E].
  - (* already there: the position is known, UNKNOWN_POSITION being odd *)
    change (r_cur st1) with (r_cur st) in E.
    assert (Hp : s_pos s = off * 2) by (unfold UNKNOWN_POSITION, two64 in Hpos; lia).
    assert (Hinv1 : RInv (firstn (Z.to_nat K) data) idx st1 s).
    { constructor; [exact Hcl|exact Hd|exact Hidx|left; exact (eq_trans (eq_sym E) (eq_sym Hp))|cbn [st1 set_next r_next]; lia]. }
    destruct (it_read_stored req data K idx (off, w) nr st1 s Hst Hbig Hinv1 Hp (eq_sym E)) as (st' & s' & R1 & R2 & R3 & R4).
    exists st', s'. auto.
  - destruct (run_seek_start (off * 2) s Hcl ltac:(lia)) as [Hrs Hcs].
    rewrite run_bind, run_catch, Hrs. cbn [snd].
    assert (Hinv1 : RInv (firstn (Z.to_nat K) data) idx (set_cur st1 (off * 2)) (bump (set_pos s (off * 2)))).
    { constructor; [exact Hcs|exact Hd|exact Hidx|left; reflexivity|cbn [st1 set_cur set_next r_next]; lia]. }
    destruct (it_read_stored req data K idx (off, w) nr _ _ Hst Hbig Hinv1 eq_refl eq_refl) as (st' & s' & R1 & R2 & R3 & R4).
    exists st', s'. auto.
Qed.

Lemma it_next_index req data idx recs st s k :
  Indexed req data idx recs -> RInv data idx st s -> r_next st = k -> k < zlen idx ->
  exists nr st' s', nth_error recs (Z.to_nat k) = Some nr /\
    run (it_next req st) s = (Ok (Some (Ok (denote (snd nr))), st'), s') /\
    RInv data idx st' s' /\ r_next st' = k + 1 /\ r_hdr st' = r_hdr st.
Proof.
  intros HI Hinv Hk Hlt. rewrite <- (firstn_zlen data) in Hinv.
  destruct (it_next_index_cut req data (zlen data) idx recs st s k HI Hinv Hk Hlt)
    as (e & nr & _ & Hnr & Hst & st' & s' & Hrun & Hinv' & Hn & Hh).
  rewrite firstn_zlen in Hinv'. pose proof (stored_bound _ _ _ _ Hst) as Hb.
  destruct (Z.leb_spec (fst e * 2 + zlen (ref_record (fst nr) (snd nr))) (zlen data)); [|lia].
  exists nr, st', s'. auto.
Qed.

Lemma it_next_end req data idx st s :
  RInv data idx st s -> r_next st = zlen idx -> run (it_next req st) s = (Ok (None, st), s).
Proof.
  intros [Hcl Hd Hidx Hpos Hnext] Hk. unfold it_next. rewrite Hidx, nth_entry_nonneg by lia.
  assert (E : nth_error idx (Z.to_nat (r_next st)) = None) by (apply nth_error_None; unfold zlen in *; lia).
  rewrite E. reflexivity.
Qed.

(** [items]: every entry answered as in [it_next_index_cut].  CrashIndex.v has
    names for the answer, [item_at], and for the list, [items_all]. *)
Lemma it_pull_index_cut req data K idx recs :
  Indexed req data idx recs ->
  let items := map (fun p : (Z * Z) * (Z * ref_rec) =>
                      if fst (fst p) * 2 + zlen (ref_record (fst (snd p)) (snd (snd p))) <=? K
                      then Ok (denote (snd (snd p))) else Err EIoEof) (combine idx recs) in
  forall fuel st s (k : nat), RInv (firstn (Z.to_nat K) data) idx st s -> r_next st = Z.of_nat k ->
  exists st' s',
    run (it_pull fuel req st) s
    = (Ok (firstn fuel (skipn k items), (length (skipn k items) <? fuel)%nat, st'), s') /\
    RInv (firstn (Z.to_nat K) data) idx st' s' /\ r_next st' = Z.of_nat (Nat.min (k + fuel) (length idx)) /\
    r_hdr st' = r_hdr st.
Proof.
  intros HI items. pose proof (Forall2_zlen _ _ _ (proj1 HI)) as Hlen. unfold zlen in Hlen.
  assert (Hli : length items = length idx) by (unfold items; rewrite map_length, combine_length; lia).
  induction fuel as [|f IH]; intros st s k Hinv Hk;
    pose proof (ri_next _ _ _ _ Hinv) as Hb; rewrite Hk in Hb; unfold zlen in Hb.
  - exists st, s. split; [reflexivity|]. split; [exact Hinv|]. split; [rewrite Hk; f_equal; lia|reflexivity].
  - cbn [it_pull]. rewrite run_bind. destruct (Z.ltb_spec (Z.of_nat k) (zlen idx)) as [Hlt|Hge].
    + destruct (it_next_index_cut req data K idx recs st s (Z.of_nat k) HI Hinv Hk Hlt)
        as (e & nr & He & Hnr & _ & st1 & s1 & Hrun & Hinv1 & Hn1 & Hh1).
      rewrite Nat2Z.id in He, Hnr. rewrite Hrun. cbn [fst snd]. rewrite run_bind.
      destruct (IH st1 s1 (S k) Hinv1 ltac:(lia)) as (st2 & s2 & Hrun2 & Hinv2 & Hn2 & Hh2). rewrite Hrun2.
      exists st2, s2. erewrite (skipn_cons_nth k items)
        by (unfold items; rewrite nth_error_map, (nth_error_combine k idx recs e nr He Hnr); reflexivity).
      split; [reflexivity|]. split; [exact Hinv2|]. split; [rewrite Hn2; f_equal; lia|congruence].
    + rewrite (it_next_end req _ idx st s Hinv) by (unfold zlen in *; lia). exists st, s.
      rewrite (skipn_all2 items) by (unfold zlen in *; lia).
      split; [reflexivity|]. split; [exact Hinv|]. split; [rewrite Hk; f_equal; unfold zlen in *; lia|reflexivity].
Qed.

Lemma answers_whole req data idx recs : Forall2 (stored_at req data) idx recs ->
  map (fun p : (Z * Z) * (Z * ref_rec) =>
         if fst (fst p) * 2 + zlen (ref_record (fst (snd p)) (snd (snd p))) <=? zlen data
         then Ok (denote (snd (snd p))) else Err EIoEof) (combine idx recs)
  = map Ok (shapes_of recs).
Proof.
  induction 1 as [|e nr idx recs Hst _ IH]; [reflexivity|]. cbn [combine map shapes_of fst snd].
  pose proof (stored_bound _ _ _ _ Hst). destruct (Z.leb_spec (fst e * 2 + zlen (ref_record (fst nr) (snd nr))) (zlen data)); [|lia].
  f_equal. exact IH.
Qed.

Definition pull_spec (shapes : list shape) (k : nat) (fuel : nat) : list (res shape) * bool * nat :=
  let avail := skipn k shapes in
  if (length avail <? fuel)%nat then (map Ok avail, true, length shapes)
  else (map Ok (firstn fuel avail), false, (k + fuel)%nat).

Lemma it_pull_index req data idx recs : forall fuel st s (k : nat),
  Indexed req data idx recs -> RInv data idx st s -> r_next st = Z.of_nat k ->
  exists st' s',
    run (it_pull fuel req st) s
    = (Ok (fst (fst (pull_spec (shapes_of recs) k fuel)), snd (fst (pull_spec (shapes_of recs) k fuel)), st'), s') /\
    RInv data idx st' s' /\ r_next st' = Z.of_nat (snd (pull_spec (shapes_of recs) k fuel)) /\ r_hdr st' = r_hdr st.
Proof.
  intros fuel st s k HI Hinv Hk. pose proof HI as [HF _]. pose proof (Forall2_zlen _ _ _ HF) as Hlen. unfold zlen in Hlen.
  pose proof (ri_next _ _ _ _ Hinv) as Hb. rewrite Hk in Hb. unfold zlen in Hb.
  rewrite <- (firstn_zlen data) in Hinv.
  destruct (it_pull_index_cut req data (zlen data) idx recs HI fuel st s k Hinv Hk) as (st' & s' & Hrun & Hinv' & Hn' & Hh').
  rewrite (answers_whole req data idx recs HF) in Hrun.
  assert (Hls : length (shapes_of recs) = length idx) by (unfold shapes_of; rewrite map_length; lia).
  rewrite firstn_zlen in Hinv'. exists st', s'. rewrite Hrun, Hn'. unfold pull_spec.
  rewrite skipn_map, map_length. pose proof (skipn_length k (shapes_of recs)) as Hsl.
  destruct (Nat.ltb_spec (length (skipn k (shapes_of recs))) fuel); cbn [fst snd].
  - rewrite firstn_all2 by (rewrite map_length; lia). split; [reflexivity|]. split; [exact Hinv'|]. split; [f_equal; lia|exact Hh'].
  - rewrite firstn_map. split; [reflexivity|]. split; [exact Hinv'|]. split; [f_equal; lia|exact Hh'].
Qed.

Lemma r_seek_index req data idx recs st s k :
  Indexed req data idx recs -> RInv data idx st s -> 0 <= k ->
  exists st' s', run (r_seek st k) s = (Ok (Ok tt, st'), s') /\ RInv data idx st' s' /\
    r_next st' = Z.min k (zlen idx) /\ r_hdr st' = r_hdr st /\
    (k < zlen idx -> exists e, nth_error idx (Z.to_nat k) = Some e /\ s_pos s' = fst e * 2 /\ r_cur st' = fst e * 2).
Proof.
  intros [HF Hbig] [Hcl Hd Hidx Hpos Hnext] Hk. unfold r_seek. rewrite Hidx, nth_entry_nonneg by exact Hk.
  destruct (Z.ltb_spec k (zlen idx)) as [Hlt|Hge].
  - destruct (nth_error_in_range idx k) as [[off w] He]; [lia|]. rewrite He.
    destruct (Forall2_nth _ _ _ _ _ HF He) as (nr & Hnr & (Hoff & _)). cbn [fst] in Hoff.
    rewrite offset_in_bytes_nonneg by exact Hoff. assert (Hoff2 : 0 <= off * 2) by lia.
    destruct (run_seek_start (off * 2) s Hcl Hoff2) as [Hrs Hcs].
    rewrite run_bind, run_catch, Hrs. cbn [snd run].
    eexists. eexists. split; [reflexivity|]. split.
    + constructor; cbn [set_cur set_next r_index r_cur r_next]; auto. lia.
    + cbn [set_cur set_next r_next r_hdr r_cur]. split; [reflexivity|]. split; [reflexivity|].
      intros _. exists (off, w). cbn [fst]. auto.
  - assert (E : nth_error idx (Z.to_nat k) = None) by (apply nth_error_None; unfold zlen in *; lia). rewrite E.
    destruct (run_seek_end s Hcl) as [Hrs Hcs].
    rewrite run_bind, run_catch, Hrs. cbn [snd run].
    eexists. eexists. split; [reflexivity|]. split.
    + constructor; cbn [set_cur set_next r_index r_cur r_next]; auto. pose proof (zlen_nonneg idx). lia.
    + cbn [set_cur set_next r_next r_hdr]. split; [reflexivity|]. split; [reflexivity|]. intros; lia.
Qed.

Lemma r_read_nth_index req data idx recs st s i :
  Indexed req data idx recs -> RInv data idx st s -> 0 <= i ->
  exists st' s',
    run (r_read_nth req st i) s
    = (Ok (match nth_error (shapes_of recs) (Z.to_nat i) with Some x => Some (Ok x) | None => None end, st'), s') /\
    RInv data idx st' s' /\ r_hdr st' = r_hdr st /\
    r_next st' = match nth_error (shapes_of recs) (Z.to_nat i) with Some _ => 0 | None => r_next st end.
Proof.
  intros HI Hinv Hi. pose proof HI as [HF Hbig]. pose proof (Forall2_zlen _ _ _ HF) as Hlen.
  pose proof Hinv as [Hcl Hd Hidx Hpos Hnext].
  unfold r_read_nth. rewrite Hidx.
  destruct (Z.leb_spec (zlen idx) i) as [Hge|Hlt].
  - cbn [run]. exists st, s.
    assert (E : nth_error (shapes_of recs) (Z.to_nat i) = None).
    { apply nth_error_None. unfold shapes_of. rewrite map_length. unfold zlen in *. lia. }
    rewrite E. auto.
  - destruct (r_seek_index req data idx recs st s i HI Hinv Hi) as (st1 & s1 & Hrun1 & Hinv1 & Hn1 & Hh1 & Hat).
    destruct (Hat Hlt) as ([off w] & He & Hp1 & Hc1). cbn [fst] in *.
    destruct (Forall2_nth _ _ _ _ _ HF He) as (nr & Hnr & Hst).
    unfold shapes_of. rewrite nth_error_map, Hnr. cbn [option_map].
    rewrite run_bind, Hrun1. cbn [fst snd].
    pose proof Hinv1 as [Hcl1 Hd1 Hidx1 _ _].
    destruct (read_record_at req data (off, w) nr s1 Hst Hcl1 Hd1 Hp1) as (s2 & Hrun2 & Hc2 & Hd2 & Hp2).
    rewrite run_bind, run_catch, Hrun2. cbn [snd].
    destruct (run_seek_start 100 s2 Hc2) as [Hrs Hcs]; [lia|].
    rewrite run_bind, run_catch, Hrs. cbn [snd run].
    eexists. eexists. split; [reflexivity|]. split; [|split; [exact Hh1|reflexivity]].
    constructor; cbn [set_cur set_next r_index r_cur r_next]; auto. pose proof (zlen_nonneg idx). lia.
Qed.

(** The abstract reader: its state is the list of shapes and the position [k]
    of the next one; a call returns its output and the next position. *)
Definition abs_call (shapes : list shape) (k : nat) (c : rcall) : rout * nat :=
  match c with
  | RIter fuel => let '(items, ended, k') := pull_spec shapes k fuel in (OItems items ended, k')
  | RNth i =>
      match nth_error shapes (Z.to_nat i) with
      | Some x => (ONthR (Some (Ok x)), O)
      | None => (ONthR None, k)
      end
  | RSeek j => (OSeekR (Ok tt), Nat.min (Z.to_nat j) (length shapes))
  | RCount => (OCountR (Ok (zlen shapes)), k)
  | RHint => (OHintR (Some (zlen shapes - Z.of_nat k)), k)
  end.

Fixpoint abs_calls (shapes : list shape) (k : nat) (cs : list rcall) : list rout :=
  match cs with
  | [] => []
  | c :: r => fst (abs_call shapes k c) :: abs_calls shapes (snd (abs_call shapes k c)) r
  end.

Definition rcall_wf (c : rcall) : Prop :=
  match c with RNth i => 0 <= i | RSeek k => 0 <= k | _ => True end.

Lemma r_call_refines req data idx recs st s (k : nat) c :
  Indexed req data idx recs -> RInv data idx st s -> r_next st = Z.of_nat k -> rcall_wf c ->
  exists st' s', run (r_call req st c) s = (Ok (fst (abs_call (shapes_of recs) k c), st'), s') /\
    RInv data idx st' s' /\ r_next st' = Z.of_nat (snd (abs_call (shapes_of recs) k c)) /\ r_hdr st' = r_hdr st.
Proof.
  intros HI Hinv Hk Hwf. pose proof HI as [HF _]. pose proof (Forall2_zlen _ _ _ HF) as Hlen.
  assert (Hls : length (shapes_of recs) = length recs) by (unfold shapes_of; apply map_length).
  assert (Hzs : zlen (shapes_of recs) = zlen idx) by (unfold zlen in *; lia).
  destruct c as [fuel|i|j| |]; cbn [r_call abs_call rcall_wf] in *.
  - destruct (it_pull_index req data idx recs fuel st s k HI Hinv Hk) as (st' & s' & Hrun & Hinv' & Hn' & Hh').
    rewrite run_bind, Hrun. cbn [run fst snd]. exists st', s'.
    destruct (pull_spec (shapes_of recs) k fuel) as [[items ended] k']. cbn [fst snd] in *. auto.
  - destruct (r_read_nth_index req data idx recs st s i HI Hinv Hwf) as (st' & s' & Hrun & Hinv' & Hh' & Hn').
    rewrite run_bind, Hrun. cbn [run fst snd]. exists st', s'.
    destruct (nth_error (shapes_of recs) (Z.to_nat i)); cbn [fst snd]; rewrite Hn'; auto.
  - destruct (r_seek_index req data idx recs st s j HI Hinv Hwf) as (st' & s' & Hrun & Hinv' & Hn' & Hh' & _).
    rewrite run_bind, Hrun. cbn [run fst snd]. exists st', s'. split; [reflexivity|]. split; [exact Hinv'|]. split; [|exact Hh'].
    rewrite Hn'. unfold zlen in *. lia.
  - cbn [run]. exists st, s. unfold r_count. rewrite (ri_index _ _ _ _ Hinv), Hzs. auto.
  - cbn [run]. exists st, s. unfold size_hint. rewrite (ri_index _ _ _ _ Hinv), Hk, Hzs.
    pose proof (ri_next _ _ _ _ Hinv). rewrite Z.max_r by lia. auto.
Qed.

Theorem index_history req data idx recs : forall cs st s (k : nat),
  Indexed req data idx recs -> RInv data idx st s -> r_next st = Z.of_nat k -> Forall rcall_wf cs ->
  exists st' s', run (r_calls req st cs) s = (Ok (abs_calls (shapes_of recs) k cs, st'), s') /\ RInv data idx st' s'.
Proof.
  induction cs as [|c cs IH]; intros st s k HI Hinv Hk Hwf.
  - cbn [r_calls run abs_calls]. exists st, s. auto.
  - inversion Hwf as [|? ? Hc Hcs]; subst.
    destruct (r_call_refines req data idx recs st s k c HI Hinv Hk Hc) as (st1 & s1 & Hrun1 & Hinv1 & Hn1 & _).
    destruct (IH st1 s1 _ HI Hinv1 Hn1 Hcs) as (st2 & s2 & Hrun2 & Hinv2).
    cbn [r_calls abs_calls]. rewrite run_bind, Hrun1. cbn [fst snd]. rewrite run_bind, Hrun2. cbn [run fst snd].
    exists st2, s2. auto.
Qed.
