(** Write-then-read: the files the writer leaves are conformant whitepaper
    files (C02), and the reader returns [on_read] of every written shape, in
    order, then ends (C01, sequential route without index; the routes through
    the index are [written_then_read_index], Proofs/IndexFiles.v).  [RecordsFit],
    the reader's guard on record sizes, is defined here. *)
From SF Require Import Model.Bytes Model.F64 Model.ShapeType Model.Shapes Model.Res Model.Encode
  Model.Writer Model.Prog Model.Reader Spec.Esri Spec.Denote Spec.Layout.
From SF Require Import Proofs.BytesLemmas Proofs.ShapeTypeProofs Proofs.RecordL1 Proofs.ReaderSeq
  Proofs.WriterInv Proofs.EncodeRef Proofs.LayoutConf.
Open Scope Z_scope.

Definition one_type (ss : list shape) : Prop := Forall (fun s => type_of s = file_type ss) ss.

Lemma accepted_one_type : forall cs ss, one_type ss -> one_type (accepted_acc ss cs).
Proof.
  induction cs as [|c cs IH]; intros ss H; cbn [accepted_acc]; [exact H|].
  destruct c as [s| |]; try (apply IH; exact H).
  destruct (accepts_type ss s) eqn:E; [|apply IH; exact H].
  apply IH. unfold one_type in *. destruct ss as [|s0 r].
  - cbn [app file_type]. constructor; [reflexivity|constructor].
  - cbn [accepts_type] in E. apply st_eqb_eq in E. cbn [app file_type] in *.
    apply Forall_app with (l1 := s0 :: r). split; [exact H|]. constructor; [symmetry; exact E|constructor].
Qed.

Lemma accepted_one_type0 cs : one_type (accepted_acc [] cs).
Proof. apply accepted_one_type. constructor. Qed.

Lemma accepted_all : forall (P : shape -> Prop) cs ss, Forall P ss ->
  Forall (fun c => match c with CWrite s => P s | _ => True end) cs -> Forall P (accepted_acc ss cs).
Proof.
  intros P. induction cs as [|c cs IH]; intros ss Hs Hc; cbn [accepted_acc]; [exact Hs|].
  inversion Hc as [|? ? Hc1 Hc2]; subst. destruct c as [s| |]; try (apply IH; assumption).
  destruct (accepts_type ss s); apply IH; try assumption.
  apply Forall_app; split; [exact Hs|constructor; [exact Hc1|constructor]].
Qed.

Lemma f64_ok_0 : f64_ok 0. Proof. unfold f64_ok, two64; lia. Qed.
Lemma f64_if_ok (c : bool) a b : f64_ok a -> f64_ok b -> f64_ok (if c then a else b).
Proof. destruct c; auto. Qed.
Lemma f64_min_ok a b : f64_ok a -> f64_ok b -> f64_ok (f64_min a b).
Proof. apply f64_if_ok. Qed.
Lemma f64_max_ok a b : f64_ok a -> f64_ok b -> f64_ok (f64_max a b).
Proof. apply f64_if_ok. Qed.

Definition range_ok (r : f64 * f64) : Prop := f64_ok (fst r) /\ f64_ok (snd r).

Lemma ranges_multi s : multi s = true ->
  x_range s = (px (bmin (multi_box s)), px (bmax (multi_box s)))
  /\ y_range s = (py (bmin (multi_box s)), py (bmax (multi_box s)))
  /\ z_range s = (if has_z_dim (shape_dim s) then (pz (bmin (multi_box s)), pz (bmax (multi_box s))) else (0, 0))
  /\ m_range s = (if has_m_dim (shape_dim s) then (pm (bmin (multi_box s)), pm (bmax (multi_box s))) else (0, 0)).
Proof. destruct s; try discriminate; intros _; try destruct d; repeat split; reflexivity. Qed.

Lemma ranges_ok s : shape_ok s -> range_ok (x_range s) /\ range_ok (y_range s) /\ range_ok (z_range s) /\ range_ok (m_range s).
Proof.
  intros H. unfold range_ok. destruct (shape_cases s) as [-> | [(d & p & ->) | Hs]].
  - contradiction.
  - destruct H as (Hx & Hy & Hz & Hm). cbn [x_range y_range fst snd]. splits; try assumption;
      destruct d; cbn [z_range m_range fst snd]; try assumption; try apply f64_ok_0;
      destruct (is_no_data (pm p)); cbn [fst snd]; try assumption; apply f64_ok_0.
  - destruct (shape_ok_multi s Hs H) as [[(Hx1 & Hy1 & Hz1 & Hm1) (Hx2 & Hy2 & Hz2 & Hm2)] _].
    destruct (ranges_multi s Hs) as (-> & -> & -> & ->).
    destruct (has_z_dim (shape_dim s)), (has_m_dim (shape_dim s)); cbn [fst snd]; splits; try assumption; apply f64_ok_0.
Qed.

Lemma grow_box_ok b s : box_ok b -> shape_ok s -> box_ok (grow_from_shape b s).
Proof.
  intros [(Hx1 & Hy1 & Hz1 & Hm1) (Hx2 & Hy2 & Hz2 & Hm2)] Hs.
  destruct (ranges_ok s Hs) as ([Ax Bx] & [Ay By] & [Az Bz] & [Am Bm]).
  unfold grow_from_shape, box_ok, pt_ok. cbn [bmin bmax px py pz pm].
  splits; repeat (apply f64_if_ok || apply f64_min_ok || apply f64_max_ok); assumption.
Qed.

Lemma sentinel_box_ok : box_ok sentinel_box.
Proof. unfold box_ok, pt_ok, sentinel_box, f64_ok, F_INF, F_NEG_INF, two64; cbn; lia. Qed.

Lemma fold_hdr_step_box_ok ss : forall h, box_ok (h_box h) -> Forall shape_ok ss -> box_ok (h_box (fold_left hdr_step ss h)).
Proof.
  induction ss as [|s r IH]; intros h Hb Hs; cbn [fold_left]; [exact Hb|].
  inversion Hs as [|? ? H1 H2]; subst. apply IH; [|exact H2].
  unfold hdr_step. cbn [set_box set_len h_box]. apply grow_box_ok; assumption.
Qed.

Lemma subst_sentinels_ok b : box_ok b -> box_ok (subst_sentinels b).
Proof.
  intros [(Hx1 & Hy1 & Hz1 & Hm1) (Hx2 & Hy2 & Hz2 & Hm2)]. unfold subst_sentinels, box_ok, pt_ok. cbn [bmin bmax px py pz pm].
  splits; try apply f64_if_ok; try apply f64_ok_0; assumption.
Qed.

Lemma final_hdr_box_ok ss : Forall shape_ok ss -> box_ok (h_box (final_hdr ss)).
Proof.
  intros Hs. unfold final_hdr. cbn [set_box h_box]. apply subst_sentinels_ok.
  unfold hdr_after. destruct ss as [|s0 r].
  - unfold box_ok, pt_ok, header_default, f64_ok, two64; cbn; lia.
  - apply fold_hdr_step_box_ok; [apply sentinel_box_ok|exact Hs].
Qed.

Lemma box8_ok b : box_ok b -> Forall f64_ok (box8 b).
Proof. intros [(Hx1 & Hy1 & Hz1 & Hm1) (Hx2 & Hy2 & Hz2 & Hm2)]. unfold box8. repeat (constructor; [assumption|]). constructor. Qed.

Lemma ref_type_rec_of_shape s : ref_type (rec_of_shape s) = type_of s.
Proof. destruct s as [|d p|d b ps|d b parts|d b rings|b patches]; try reflexivity; destruct d; reflexivity. Qed.

Lemma numbered_in_i32 : forall (rs : list ref_rec) i, 0 <= i -> i + zlen rs <= two31 ->
  Forall (fun nr => in_i32 (fst nr)) (numbered i rs).
Proof.
  induction rs as [|r rest IH]; intros i Hi Hn; cbn [numbered]; constructor; rewrite zlen_cons in Hn; pose proof (zlen_nonneg rest).
  - cbn [fst]. unfold in_i32, two31 in *. lia.
  - apply IH; lia.
Qed.

Lemma numbered_snd (P : ref_rec -> Prop) i rs : Forall P rs -> Forall (fun nr => P (snd nr)) (numbered i rs).
Proof. intros H. apply Forall_map. rewrite map_snd_numbered. exact H. Qed.

Theorem layout_conformant ss : Forall shape_ok ss -> one_type ss -> FileFits ss ->
  file_conformant (layout (file_type ss) (h_box (final_hdr ss)) ss).
Proof.
  intros Hok Hty Hf. unfold file_conformant, layout. cbn [rf_box rf_records rf_type].
  split; [reflexivity|]. split; [apply box8_ok, final_hdr_box_ok, Hok|]. split.
  - apply Forall_and.
    + apply numbered_in_i32; [lia|]. rewrite zlen_map. unfold FileFits, file_words in Hf. pose proof (sum_words_ge ss). unfold two31 in *. lia.
    + apply (numbered_snd (fun r => rec_conformant r /\ (ref_type r = file_type ss \/ ref_type r = TNull))).
      pose proof (FileFits_each ss Hf) as He. unfold one_type in Hty. rewrite Forall_forall in Hok, Hty, He.
      apply Forall_map, Forall_forall. intros s Hs. split; [apply rec_of_shape_conformant; auto|].
      left. rewrite ref_type_rec_of_shape. auto.
  - rewrite <- records_is_ref, file_words_records. exact Hf.
Qed.

(** The reader refuses a record whose content is 2^31 bytes or more (its i32
    byte count would overflow), although the writer can store up to 2^32 - 2
    bytes: the round trip is claimed for records below 2 GiB. *)
Definition RecordsFit (ss : list shape) : Prop := Forall (fun s => 4 + size_in_bytes s < two31) ss.

Lemma written_records_accepted req ss : one_type ss -> RecordsFit ss -> (req = None \/ req = Some (file_type ss)) ->
  Forall (fun nr => accepts req (snd nr) /\ zlen (ref_content (snd nr)) < two31) (numbered 1 (map rec_of_shape ss)).
Proof.
  intros Hty Hrf Hreq. apply (numbered_snd (fun r => accepts req r /\ zlen (ref_content r) < two31)), Forall_map.
  unfold RecordsFit, one_type in *. rewrite Forall_forall in *. intros s Hs.
  rewrite zlen_ref_content_shape. split; [|exact (Hrf s Hs)].
  unfold accepts. rewrite ref_type_rec_of_shape, (Hty s Hs). destruct Hreq as [-> | ->]; auto.
Qed.

Lemma written_records_ok req ss :
  Forall shape_ok ss -> one_type ss -> FileFits ss -> RecordsFit ss ->
  (req = None \/ req = Some (file_type ss)) ->
  Forall (record_ok req) (numbered 1 (map rec_of_shape ss)).
Proof.
  intros Hok Hty Hf Hrf Hreq.
  pose proof (layout_conformant ss Hok Hty Hf) as (_ & _ & Hr & _). cbn [layout rf_records rf_type] in Hr.
  eapply Forall_impl; [|exact (Forall_and Hr (written_records_accepted req ss Hty Hrf Hreq))]. cbv beta.
  intros nr [(H1 & H2 & _) (H3 & H4)]. exact (conj H1 (conj H2 (conj H4 H3))).
Qed.

Lemma written_records_small ss : FileFits ss -> zlen (ref_records_bytes (numbered 1 (map rec_of_shape ss))) < two31 * 4.
Proof. intros Hf. rewrite <- records_is_ref, zlen_records_from. unfold FileFits, file_words in Hf. unfold two31 in *. lia. Qed.

Lemma firstn_numbered j i rs : firstn j (numbered i rs) = numbered i (firstn j rs).
Proof.
  revert i rs; induction j as [|j IH]; intros i [|r rs]; try reflexivity. cbn [numbered firstn]. rewrite IH. reflexivity.
Qed.

Lemma firstn_numbered_map j i ss :
  map (fun nr : Z * ref_rec => @Ok shape (denote (snd nr))) (firstn j (numbered i (map rec_of_shape ss)))
  = map (fun s => Ok (on_read s)) (firstn j ss).
Proof. rewrite firstn_numbered, firstn_map. apply (denote_numbered (@Ok shape)). Qed.

Theorem written_then_read_seq (req : option shape_type) (ss : list shape) (trailing : bytes) :
  Forall shape_ok ss -> one_type ss -> FileFits ss -> RecordsFit ss ->
  (req = None \/ req = Some (file_type ss)) ->
  exists st s',
    run (st <-- r_new ;; x <-- it_pull (S (length ss)) req st ;; Ret (r_hdr st, x))
        (src_of (final_shp ss ++ trailing))
    = (Ok (header_of (file_type ss) (box8 (h_box (final_hdr ss))) (file_words ss),
           (map (fun s => Ok (on_read s)) ss, true, st)), s').
Proof.
  intros Hok Hty Hf Hrf Hreq. rewrite final_shp_is_ref by exact Hf.
  set (g := layout (file_type ss) (h_box (final_hdr ss)) ss).
  destruct (read_all_noindex req g trailing (layout_conformant ss Hok Hty Hf)) as (st & s' & E).
  - exact (written_records_accepted req ss Hty Hrf Hreq).
  - exists st, s'. subst g. unfold layout, declared_words in *. cbn [rf_records rf_type rf_box] in E.
    rewrite (denote_numbered (@Ok shape)), <- records_is_ref, file_words_records in E.
    rewrite numbered_length, map_length in E. exact E.
Qed.
