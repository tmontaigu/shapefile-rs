(** C16 — Polygon and multipatch constructors close and orient rings, losing
    no vertex.  The theorems of the property, proved from the lemmas of
    Proofs/PolygonCtor.v and, on the exact domain, Proofs/F64Exact.v. *)
From SF Require Import Model.Bytes Model.F64 Model.Shapes Model.Res Model.F64Arith Model.Construct.
From SF Require Import Proofs.BoxExact Proofs.PolygonCtor Proofs.F64Exact.
Open Scope Z_scope.

(** What every polygon constructor (new, with_rings, and hence the macros)
    stores: each ring of the caller, closed and reordered. *)
Theorem C16_rings : forall (d : dim) (rings : list (role * list pt)) (s : shape),
  mk_polygon d rings = Ok s -> rings_of s = map (close_and_reorder d) rings.
Proof. exact mk_polygon_rings. Qed.
Print Assumptions C16_rings.

(** No vertex is lost, altered or moved: a stored ring keeps its declared role
    and is the caller's sequence, closed by one copy of its first vertex if it
    was open, then kept or reversed as a whole — for any vertex count >= 0, any
    coordinates, whatever the orientation test answers. *)
Theorem C16_vertices : forall (d : dim) (ring : role * list pt),
  let c := close_points d (snd ring) in
  (c = snd ring \/ exists p0 r, snd ring = p0 :: r /\ c = snd ring ++ [p0] /\ is_part_closed d (snd ring) = false) /\
  fst (close_and_reorder d ring) = fst ring /\
  (snd (close_and_reorder d ring) = c \/ snd (close_and_reorder d ring) = rev c).
Proof.
  intros d [r ps] c. cbn [fst snd] in *. split; [|split; [reflexivity|apply reorder_cases]].
  unfold c, close_points. destruct (is_part_closed d ps) eqn:E; [left; reflexivity|].
  destruct ps as [|p0 ps']; [left; reflexivity|]. right. exists p0, ps'. auto.
Qed.
Print Assumptions C16_vertices.

(** Closure: every stored ring with at least one vertex whose first vertex has
    no NaN coordinate is closed: first == last in every coordinate the point
    type has (X, Y, and M, Z where present). *)
Theorem C16_closed : forall (d : dim) (ring : role * list pt),
  snd ring <> [] -> pt_nn d (hd pt0 (snd ring)) ->
  is_part_closed d (snd (close_and_reorder d ring)) = true.
Proof. exact close_and_reorder_closed. Qed.
Print Assumptions C16_closed.

(** Orientation: the stored vertex order agrees with the declared role — the
    orientation test (sign of the IEEE shoelace sum: negative = inner) of the
    stored ring returns the ring's role — whenever the test tells the closed
    ring from its mirror image.  (On coordinates where the shoelace sum is
    evaluated exactly the test is the sign of the exact signed area, and a ring
    of non-zero area differs from its mirror image; that arithmetic fact is
    checked on the implementation's output with exact rationals, not proved:
    see DESIGN.md, C16.) *)
Theorem C16_orientation : forall (d : dim) (ring : role * list pt),
  let c := close_points d (snd ring) in
  ring_role (rev c) <> ring_role c ->
  ring_role (snd (close_and_reorder d ring)) = fst ring.
Proof. exact close_and_reorder_oriented. Qed.
Print Assumptions C16_orientation.

(** Rebuilding a polygon from its own rings changes nothing when every ring is
    closed and its role agrees with the orientation test. *)
Theorem C16_idempotent : forall (d : dim) (rings : list (role * list pt)) (s : shape),
  mk_polygon d rings = Ok s ->
  Forall (fun r => is_part_closed d (snd r) = true /\ ring_role (snd r) = fst r) (rings_of s) ->
  mk_polygon d (rings_of s) = Ok s.
Proof. exact mk_polygon_idempotent. Qed.
Print Assumptions C16_idempotent.

(** Multipatch constructors close the four ring kinds in the same way and
    leave triangle strips and fans untouched. *)
Theorem C16_multipatch : forall (patches : list (pkind * list pt)) (s : shape),
  mk_multipatch patches = Ok s ->
  patches_of s = map close_patch patches /\
  forall p, fst (close_patch p) = fst p /\
            (if pkind_is_ring (fst p) then snd (close_patch p) = close_points XYZM (snd p) else snd (close_patch p) = snd p).
Proof.
  intros patches s H. split.
  - apply mk_multipatch_inv in H. destruct H as (b & _ & ->). reflexivity.
  - intros p. unfold close_patch. destruct (pkind_is_ring (fst p)) eqn:E; cbn [fst snd]; rewrite ?E; auto.
Qed.
Print Assumptions C16_multipatch.

(** Orientation by EXACT signed area, on the exact domain: all X and Y of the
    closed ring are finite doubles z * 2^e with one common exponent
    -500 <= e <= 480 and integers |z| <= C such that
    (number of vertices + 1) * 4 C^2 < 2^53 ([exact_domain]; e.g. integers up to
    2^20 in rings of up to 2047 vertices, or any scaling of them by a power of
    two).  There every IEEE operation of the shoelace evaluation is exact and
    the orientation test IS the sign of the exact shoelace sum [sh2] (twice the
    signed area, clockwise positive, in units of 2^(2e)). *)
Theorem C16_test_is_exact_sign : forall (e C : Z) (ps : list pt) (zs : list (Z * Z)),
  exact_domain e C ps zs -> ring_is_inner ps = (sh2 zs <? 0).
Proof. intros e C ps zs [H1 H2 H3 H4 H5]. exact (ring_is_inner_exact e C ps zs H1 H2 H3 H4 H5). Qed.
Print Assumptions C16_test_is_exact_sign.

(** Reversal negates the exact area, so a ring of non-zero area is always told
    from its mirror image... *)
Theorem C16_area_of_reverse : forall zs, sh2 (rev zs) = - sh2 zs.
Proof. exact sh2_rev. Qed.
Print Assumptions C16_area_of_reverse.

(** ...and the stored ring is the caller's closed ring or its reverse, still in
    the exact domain, clockwise (sum >= 0) when declared Outer and
    counter-clockwise (sum <= 0) when declared Inner, with the same non-zero
    area magnitude: every outer ring clockwise, every inner ring
    counter-clockwise by exact signed area, either order when the area is zero. *)
Theorem C16_orientation_exact : forall (d : dim) (ring : role * list pt) (e C : Z) (zs : list (Z * Z)),
  exact_domain e C (close_points d (snd ring)) zs ->
  exists zs', exact_domain e C (snd (close_and_reorder d ring)) zs' /\
              (zs' = zs \/ zs' = rev zs) /\
              (fst ring = Outer -> 0 <= sh2 zs') /\ (fst ring = Inner -> sh2 zs' <= 0) /\
              (sh2 zs <> 0 -> sh2 zs' <> 0).
Proof. exact close_and_reorder_exact. Qed.
Print Assumptions C16_orientation_exact.

(** Rebuilding a polygon whose rings have non-zero (exact) area from its own
    rings changes nothing. *)
Theorem C16_idempotent_exact : forall (d : dim) (rings : list (role * list pt)) (s : shape),
  mk_polygon d rings = Ok s ->
  Forall (fun r => snd r <> [] /\ pt_nn d (hd pt0 (snd r)) /\ exact_nonzero d r) rings ->
  mk_polygon d (rings_of s) = Ok s.
Proof. exact mk_polygon_idempotent_exact. Qed.
Print Assumptions C16_idempotent_exact.

(** Non-vacuity of the exact domain: the closed counter-clockwise unit triangle. *)
Example C16_exact_example :
  let ps := [mkpt 0 0 0 0; mkpt one64 0 0 0; mkpt 0 one64 0 0; mkpt 0 0 0 0] in
  let zs := [(0, 0); (1, 0); (0, 1); (0, 0)] in
  exact_domain 0 1 ps zs /\ sh2 zs = -1.
Proof. exact exact_domain_triangle. Qed.

(** Non-vacuity: an open counter-clockwise triangle declared Outer is closed
    and reversed; a ring whose ends differ only in M is closed by a copy of its
    first vertex. *)
Definition c16_one : f64 := 4607182418800017408.
Example C16_example :
  close_and_reorder XY (Outer, [mkpt 0 0 0 0; mkpt c16_one 0 0 0; mkpt 0 c16_one 0 0])
  = (Outer, [mkpt 0 0 0 0; mkpt 0 c16_one 0 0; mkpt c16_one 0 0 0; mkpt 0 0 0 0]) /\
  length (snd (close_and_reorder XYM (Inner, [mkpt 0 0 0 1; mkpt c16_one 0 0 1; mkpt 0 c16_one 0 1; mkpt 0 0 0 2]))) = 5%nat.
Proof. split; vm_compute; reflexivity. Qed.
