(** C01 — Write-then-read round trip preserves every shape exactly.
    The theorems of the property, proved from the lemmas of Proofs/RoundTrip.v,
    Proofs/OnRead.v (sequential route) and, for the routes through the index,
    from C04_reader (C04.v; Proofs/IndexFiles.v).  The guards: [call_wf]
    (C02.v, over [shape_ok] of Proofs/LayoutConf.v, where [on_read] is defined
    too), [FileFits] (Proofs/EncodeRef.v), [RecordsFit] (Proofs/RoundTrip.v). *)
From SF Require Import Model.Bytes Model.F64 Model.ShapeType Model.Shapes Model.Res Model.Encode
  Model.F64Arith Model.Construct Model.Writer Model.Prog Model.Decode Model.Reader Spec.Esri Spec.Layout.
From SF Require Import Proofs.ReaderSeq Proofs.WriterInv Proofs.EncodeRef Proofs.LayoutConf Proofs.RoundTrip
  Proofs.OnRead Proofs.IndexReader Proofs.PolygonCtor Proofs.F64Exact.
From SF Require Import Model.Paths Proofs.PathsProofs.
From SF Require Import Properties.C02.
From SF Require Properties.C04.
Open Scope Z_scope.

(** Any history of writes (and finalizes) of well-formed shapes, then reading
    the produced .shp sequentially — generic reader, or the typed reader of
    the file's type — yields the header that was written, exactly one item per
    written shape, in order, each [on_read] of the written value, and then
    ends.  Guards: the file length fits its field and every record is below
    2 GiB (what the reader accepts). *)
Theorem C01_roundtrip_seq : forall (hs : bool) (cs : list wcall) (e : wending) (req : option shape_type) (trailing : bytes),
  Forall call_wf cs ->
  let ss := accepted_acc [] cs in
  FileFits ss -> RecordsFit ss ->
  (req = None \/ req = Some (file_type ss)) ->
  exists st s',
    run (st <-- r_new ;; x <-- it_pull (S (length ss)) req st ;; Ret (r_hdr st, x))
        (src_of (fst (files (snd (run_history hs world0 cs e))) ++ trailing))
    = (Ok (header_of (file_type ss) (box8 (h_box (final_hdr ss))) (file_words ss),
           (map (fun s => Ok (on_read s)) ss, true, st)), s').
Proof.
  intros hs cs e req trailing Hwf ss Hf Hr Hreq.
  rewrite (history_files hs cs e (call_wf_ok cs Hwf)). cbn [fst]. fold ss.
  apply written_then_read_seq; [apply accepted_wf, Hwf|apply accepted_one_type0|exact Hf|exact Hr|exact Hreq].
Qed.
Print Assumptions C01_roundtrip_seq.


(** The routes through the index: the .shx the writer left parses to one entry
    per shape, and for every history of reader calls on a reader opened with it
    — sequential iteration, random access at any indices in any order,
    seek, count — each call returns what the abstract reader over
    [map on_read ss] returns ([abs_call], Proofs/IndexReader.v): read_nth i is
    [on_read] of the i-th written shape for i < n and nothing beyond, a full
    iteration yields all of them in order. *)
Theorem C01_roundtrip_index : forall (req : option shape_type) (cs : list wcall) (e : wending) (rcs : list rcall),
  Forall call_wf cs ->
  let ss := accepted_acc [] cs in
  FileFits ss -> RecordsFit ss -> (req = None \/ req = Some (file_type ss)) -> Forall rcall_wf rcs ->
  let fs := files (snd (run_history true world0 cs e)) in
  exists idx,
    fst (run read_index_file (src_of (snd fs))) = Ok idx /\ zlen idx = zlen ss /\
    exists s',
      run (st <-- r_with_shx idx ;; x <-- r_calls req st rcs ;; Ret (r_hdr st, fst x)) (src_of (fst fs))
      = (Ok (header_of (file_type ss) (box8 (h_box (final_hdr ss))) (file_words ss),
             abs_calls (map on_read ss) 0 rcs), s').
Proof. exact C04.C04_reader. Qed.
Print Assumptions C01_roundtrip_index.

(** What [on_read] keeps, clause by clause. *)
Theorem C01_same_type : forall s, type_of (on_read s) = type_of s /\ shape_dim (on_read s) = shape_dim s.
Proof. intros s. destruct s; split; reflexivity. Qed.
Print Assumptions C01_same_type.

Theorem C01_xyz_bit_identical : forall s,
  map (map (xyz_of (shape_dim s))) (shape_parts (on_read s)) = map (map (xyz_of (shape_dim s))) (shape_parts s).
Proof.
  intros s. rewrite shape_parts_on_read. apply map_map_ext. intros p. destruct (is_point s), (shape_dim s); reflexivity.
Qed.
Print Assumptions C01_xyz_bit_identical.

Theorem C01_measures : forall s,
  map (map (m_of (shape_dim s))) (shape_parts (on_read s))
  = map (map (fun p => if is_point s then m_of (shape_dim s) p
                       else if has_m_dim (shape_dim s) then read_m_norm (pm p) else 0)) (shape_parts s).
Proof.
  intros s. rewrite shape_parts_on_read. apply map_map_ext. intros p. destruct (is_point s), (shape_dim s); reflexivity.
Qed.
Print Assumptions C01_measures.

Theorem C01_measure_rule : forall v,
  read_m_norm v = (if f64_is_nan v || f64_le v F_NO_DATA then F_NO_DATA else v).
Proof.
  intros v. unfold read_m_norm, f64_gt, f64_lt, f64_le.
  change (f64_is_nan F_NO_DATA) with false. cbn [negb andb].
  destruct (f64_is_nan v); cbn [negb andb orb]; [reflexivity|].
  destruct (f64_key F_NO_DATA <? f64_key v) eqn:E1; destruct (f64_key v <=? f64_key F_NO_DATA) eqn:E2; try reflexivity; lia.
Qed.
Print Assumptions C01_measure_rule.

Theorem C01_kinds_and_box : forall s,
  patch_kinds (on_read s) = patch_kinds s /\
  shape_box (on_read s) = match shape_box s with Some b => Some (clean_box (shape_dim s) b) | None => None end.
Proof.
  intros s. split; [|destruct s; reflexivity].
  destruct s; try reflexivity. cbn [on_read patch_kinds]. rewrite map_map. reflexivity.
Qed.
Print Assumptions C01_kinds_and_box.

(** Ring roles are those of the vertex order as stored (the orientation test
    sees X and Y only, which are unchanged). *)
Theorem C01_roles : forall d b rings,
  on_read (SPolygon d b rings)
  = SPolygon d (clean_box d b) (map (fun r => (ring_role (snd r), map (norm_pt d) (snd r))) rings).
Proof.
  intros d b rings. cbn [on_read]. f_equal. apply map_ext. intros r. unfold ring_from_points. rewrite ring_role_norm. reflexivity.
Qed.
Print Assumptions C01_roles.

(** ...and for a polygon obtained from a public constructor whose rings lie in
    the exact domain (Proofs/F64Exact.v) with non-zero exact area, the role
    re-derived on reading is the role the polygon was built with: roles are kept. *)
Theorem C01_roles_kept : forall d rings b rs,
  mk_polygon d rings = Ok (SPolygon d b rs) -> Forall (exact_nonzero d) rings ->
  on_read (SPolygon d b rs) = SPolygon d (clean_box d b) (map (fun r => (fst r, map (norm_pt d) (snd r))) rs).
Proof.
  intros d rings b rs H Hall. rewrite C01_roles. f_equal.
  pose proof (mk_polygon_rings d rings _ H) as Hr. cbn [rings_of] in Hr. subst rs.
  rewrite !map_map. apply map_ext_in. intros r Hin. rewrite Forall_forall in Hall.
  rewrite (stored_role_exact d r (Hall r Hin)). reflexivity.
Qed.
Print Assumptions C01_roles_kept.

(** Non-vacuity: a PolygonM file with a NaN measure; the model reader run on the writer's bytes. *)
Definition ex_nan : f64 := 9221120237041090560.
Definition ex_poly : shape :=
  SPolygon XYM (mkbox (mkpt 0 0 0 7) (mkpt 4607182418800017408 4607182418800017408 0 8))
    [(Outer, [mkpt 0 0 0 ex_nan; mkpt 0 4607182418800017408 0 7; mkpt 4607182418800017408 4607182418800017408 0 8;
              mkpt 0 0 0 ex_nan])].
Example C01_example :
  let cs := [CWrite ex_poly; CFinalize; CWrite ex_poly] in
  Forall call_wf cs /\ FileFits (accepted_acc [] cs) /\ RecordsFit (accepted_acc [] cs) /\
  fst (run (st <-- r_new ;; x <-- it_pull 3 None st ;; Ret (fst (fst x)))
           (src_of (fst (files (snd (run_history true world0 cs EDrop))))))
  = Ok [Ok (on_read ex_poly); Ok (on_read ex_poly)] /\
  map (map pm) (shape_parts (on_read ex_poly)) = [[F_NO_DATA; 7; 8; F_NO_DATA]].
Proof.
  cbv zeta. split.
  - repeat constructor; unfold f64_ok, two64, ex_nan; cbn; lia.
  - split; [vm_compute; reflexivity|]. split; [repeat constructor|]. split; vm_compute; reflexivity.
Qed.

(** By path (Model/Paths.v): `ShapeWriter::from_path`, then `ShapeReader::from_path`.
    Whatever the directory held before — older and longer files under the same
    names included — a history written through `ShapeWriter::from_path(n)` and
    opened again through `ShapeReader::from_path(n)` is read through the index
    the writer left, every reader call returning what the abstract reader over
    [map on_read ss] returns; every other file of the directory is what it was.
    ([write_by_path] is None only for a name whose own extension is "shx".) *)
Theorem C01_roundtrip_by_path : forall (f : dir) (n : fname) (req : option shape_type) (cs : list wcall) (e : wending)
    (rcs : list rcall) (rs : list (res unit)) (f' : dir),
  write_by_path f n cs e = Some (rs, f') ->
  Forall call_wf cs ->
  let ss := accepted_acc [] cs in
  FileFits ss -> RecordsFit ss -> (req = None \/ req = Some (file_type ss)) -> Forall rcall_wf rcs ->
  exists shp shx idx,
    sr_open f' n = OOpen shp (Some shx) /\
    (forall m, m <> n -> m <> with_ext n SHX -> fs_get f' m = fs_get f m) /\
    fst (run read_index_file (src_of shx)) = Ok idx /\ zlen idx = zlen ss /\
    exists s',
      run (st <-- r_with_shx idx ;; x <-- r_calls req st rcs ;; Ret (r_hdr st, fst x)) (src_of shp)
      = (Ok (header_of (file_type ss) (box8 (h_box (final_hdr ss))) (file_words ss),
             abs_calls (map on_read ss) 0 rcs), s').
Proof.
  intros f n req cs e rcs rs f' Hw Hwf ss Hf Hrf Hreq Hr.
  apply write_by_path_some in Hw. destruct Hw as (Hn & _ & ->).
  destruct (C01_roundtrip_index req cs e rcs Hwf Hf Hrf Hreq Hr) as (idx & Hi & Hl & s' & Hrun).
  exists (fst (files (snd (run_history true world0 cs e)))), (snd (files (snd (run_history true world0 cs e)))), idx.
  split; [exact (open_after_write f n Hn _)|].
  split; [intros m H1 H2; exact (write_frame f n _ m H1 H2)|].
  split; [exact Hi|split; [exact Hl|exists s'; exact Hrun]].
Qed.
Print Assumptions C01_roundtrip_by_path.

(** Once the index file is removed the reader opens without index, on the same bytes
    (to which [C01_roundtrip_seq] applies). *)
Theorem C01_by_path_without_index : forall (f : dir) (n : fname) (cs : list wcall) (e : wending) rs f',
  dir_ok f -> write_by_path f n cs e = Some (rs, f') ->
  sr_open (fs_remove f' (with_ext n SHX)) n = OOpen (fst (files (snd (run_history true world0 cs e)))) None.
Proof.
  intros f n cs e rs f' Hok Hw. apply write_by_path_some in Hw. destruct Hw as (Hn & _ & ->).
  exact (open_without_shx f n Hn _ Hok).
Qed.
Print Assumptions C01_by_path_without_index.

(** A second shapefile written afterwards next to the first (another name with
    the same extension) leaves the first one as it was. *)
Theorem C01_second_shapefile_harmless : forall (f : dir) (p q ext : fname) cs1 e1 cs2 e2 rs1 f1 rs2 f2,
  extension p = Some ext -> extension q = Some ext -> p <> q ->
  write_by_path f p cs1 e1 = Some (rs1, f1) -> write_by_path f1 q cs2 e2 = Some (rs2, f2) ->
  sr_open f2 p = sr_open f1 p.
Proof.
  intros f p q ext cs1 e1 cs2 e2 rs1 f1 rs2 f2 Hp Hq Hne _ H2.
  apply write_by_path_some in H2. destruct H2 as (_ & _ & ->). exact (other_shapefile_frame f1 p q ext _ Hp Hq Hne).
Qed.
Print Assumptions C01_second_shapefile_harmless.

(** The premises are satisfiable: "a.shp" in a directory holding a stale, longer "a.shx". *)
Example C01_by_path_example :
  let f := [([97; 46; 115; 104; 120], FBytes (repeat_Z 7 500))] in
  exists rs f', write_by_path f [97; 46; 115; 104; 112] [] EDrop = Some (rs, f') /\ dir_ok f /\
    extension [97; 46; 115; 104; 112] = Some SHP /\
    match fs_get f' [97; 46; 115; 104; 120] with Some (FBytes b) => zlen b = 100 | _ => False end.
Proof.
  eexists; eexists. split; [vm_compute; reflexivity|]. split; [repeat constructor; cbn; tauto|]. split; reflexivity.
Qed.
