(** C18 — A shape's announced byte size equals what its serialisation emits.
    The theorems of the property, proved from the lemmas of Proofs/SizeProofs.v. *)
From SF Require Import Model.Bytes Model.ShapeType Model.Shapes Model.Encode.
From SF Require Import Proofs.SizeProofs.
Open Scope Z_scope.

(** For every shape value (no constructor invariant needed), the number of
    bytes `write_to` emits equals `size_in_bytes`. *)
Theorem C18_size : forall s : shape, zlen (content_bytes s) = size_in_bytes s.
Proof. exact size_in_bytes_correct. Qed.
Print Assumptions C18_size.

(** The content length the writer stores (in 16-bit words) counts exactly the
    4-byte type code plus the content; the division by two is exact. *)
Theorem C18_record_len : forall (t : shape_type) (s : shape),
  zlen (concat ([i32_le (st_code t)] ++ content_chunks s)) = 2 * record_words s
  /\ 2 * record_words s = size_in_bytes s + 4.
Proof. intros t s. split; [apply record_words_exact|apply record_words_double]. Qed.
Print Assumptions C18_record_len.

(** A whole record occupies 8 header bytes plus twice the stored word count. *)
Theorem C18_record_bytes : forall t num s, zlen (record_bytes t num s) = 8 + 2 * record_words s.
Proof. exact record_bytes_length. Qed.
Print Assumptions C18_record_bytes.

(** Non-vacuity: a two-part PolylineZ with 5 points. *)
Example C18_example :
  let p := mkpt 1 2 3 4 in
  let s := SPolyline XYZM (mkbox p p) [[p; p]; [p; p; p]] in
  size_in_bytes s = 240 /\ zlen (content_bytes s) = 240 /\ record_words s = 122.
Proof. vm_compute. repeat split. Qed.
