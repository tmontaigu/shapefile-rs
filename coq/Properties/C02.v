(** C02 — Every written .shp is a well-formed ESRI shapefile.  The theorems of
    the property, proved from the lemmas of Proofs/EncodeRef.v,
    Proofs/LayoutConf.v, Proofs/RoundTrip.v.

    [ref_shp], [ref_shx], [file_conformant] and [denote] are the whitepaper
    transcription (Spec/Esri.v, Spec/Denote.v); [layout] fixes the choices the
    property names (records numbered 1..n, M block always present, part
    offsets = running sums from 0, record box = the value's box).
    [call_wf], the guard on writer histories here and in the write-then-read
    properties (C01, C04, C14, C15), is defined here. *)
From SF Require Import Model.Bytes Model.F64 Model.ShapeType Model.Shapes Model.Encode Model.Writer
  Spec.Esri Spec.Denote Spec.Layout.
From SF Require Import Proofs.WriterInv Proofs.EncodeRef Proofs.LayoutConf Proofs.RoundTrip.
Open Scope Z_scope.

(** A call of a history on well-formed shape values ([shape_ok]: every
    coordinate a 64-bit pattern, no Null shape).  [CHeal] is the harness clearing
    a fault plan, not a call of the library. *)
Definition call_wf (c : wcall) : Prop :=
  match c with CWrite s => shape_ok s | CFinalize => True | CHeal => False end.

Lemma call_wf_ok cs : Forall call_wf cs -> Forall call_ok cs.
Proof.
  intros H. eapply Forall_impl; [|exact H]. intros [s| |]; cbn; auto. destruct s; cbn; try contradiction; intros _ E; try discriminate;
    destruct d; discriminate.
Qed.

Lemma accepted_wf cs : Forall call_wf cs -> Forall shape_ok (accepted_acc [] cs).
Proof.
  intros H. apply accepted_all; [constructor|]. eapply Forall_impl; [|exact H]. intros [s| |]; cbn; auto.
Qed.

(** One record: type code followed by what `write_to` emits is the whitepaper
    content of the record the value must be stored as — for every shape value. *)
Theorem C02_record : forall s : shape,
  i32_le (st_code (type_of s)) ++ content_bytes s = ref_content (rec_of_shape s).
Proof. exact content_is_ref. Qed.
Print Assumptions C02_record.

(** Whole files, after any history of writes and finalizes ended by drop or
    finalize+drop (n >= 0 shapes): the .shp is exactly the whitepaper file of
    the layout of the accepted shapes — header with code 9994, zeroed words,
    length = real length / 2, version 1000, the type, then the records
    1..n without gaps or trailing bytes — and the .shx is its index. *)
Theorem C02_emits_spec : forall (hs : bool) (cs : list wcall) (e : wending),
  Forall call_wf cs ->
  let ss := accepted_acc [] cs in
  FileFits ss ->
  files (snd (run_history hs world0 cs e))
  = (ref_shp (layout (file_type ss) (h_box (final_hdr ss)) ss),
     if hs then ref_shx (layout (file_type ss) (h_box (final_hdr ss)) ss) else []).
Proof.
  intros hs cs e Hwf ss Hf. rewrite (history_files hs cs e (call_wf_ok cs Hwf)). fold ss.
  rewrite final_shp_is_ref, final_shx_is_ref by exact Hf. reflexivity.
Qed.
Print Assumptions C02_emits_spec.

(** That file satisfies the whitepaper's side conditions (part offsets start at
    0, ascend, stay within the points; counts and lengths consistent; record
    types = file type; lengths fit their fields). *)
Theorem C02_conformant : forall (cs : list wcall),
  Forall call_wf cs ->
  let ss := accepted_acc [] cs in
  FileFits ss ->
  file_conformant (layout (file_type ss) (h_box (final_hdr ss)) ss).
Proof.
  intros cs Hwf ss Hf. apply layout_conformant; [apply accepted_wf, Hwf|apply accepted_one_type0|exact Hf].
Qed.
Print Assumptions C02_conformant.

(** What the whitepaper says those records encode is the geometry handed to
    the writer ([on_read]: the value itself, measures of multi-vertex shapes
    normalised, ring roles from the vertex order; characterised in C01.v). *)
Theorem C02_geometry_recovered : forall (ss : list shape) (t : shape_type) (hb : bbox),
  map (fun nr => denote (snd nr)) (rf_records (layout t hb ss)) = map on_read ss.
Proof.
  intros ss t hb. exact (denote_numbered (fun s => s) 1 ss).
Qed.
Print Assumptions C02_geometry_recovered.

(** Non-vacuity: two PolylineZ shapes with a finalize in between. *)
Definition ex_line (z : f64) : shape :=
  SPolyline XYZM (mkbox (mkpt 1 2 z 7) (mkpt 3 4 z 8)) [[mkpt 1 2 z 7; mkpt 3 4 z 8]; [mkpt 1 4 z 7; mkpt 3 2 z 8; mkpt 1 2 z 7]].
Example C02_example :
  let cs := [CWrite (ex_line 5); CFinalize; CWrite (ex_line 6)] in
  Forall call_wf cs /\ FileFits (accepted_acc [] cs) /\
  zlen (fst (files (snd (run_history true world0 cs EDrop)))) = 100 + 2 * (8 + 4 + 32 + 8 + 8 + 5 * 32 + 32).
Proof.
  cbv zeta. split.
  - repeat constructor; unfold f64_ok, two64; cbn; lia.
  - split; [vm_compute; reflexivity|vm_compute; reflexivity].
Qed.
