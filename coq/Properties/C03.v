(** C03 — Reader decodes every spec-conformant .shp, including foreign
    layouts.  The theorems of the property, proved in Proofs/RecordL1.v and
    Proofs/ReaderSeq.v.

    The specification side ([ref_shp], [file_conformant], [denote]) is
    Spec/Esri.v and Spec/Denote.v: the whitepaper layout, with per-record
    optional M blocks, PointZ with or without M, null records, parts of zero
    or one vertex, zero parts, arbitrary stored boxes and record numbers. *)
From SF Require Import Model.Bytes Model.F64 Model.ShapeType Model.Shapes Model.Res Model.Prog Model.Decode
  Model.Reader Spec.Esri Spec.Denote.
From SF Require Import Proofs.ProgLemmas Proofs.RecordL1 Proofs.ReaderSeq.
Open Scope Z_scope.

(** One record: on the bytes of any conformant record (whatever follows it),
    the record reader returns the record number, the stored content length and
    the geometry the record denotes, and consumes exactly the record. *)
Theorem C03_record : forall (req : option shape_type) (num : Z) (r : ref_rec),
  in_i32 num -> rec_conformant r -> zlen (ref_content r) < two31 -> accepts req r ->
  reads (read_one_shape req) (ref_record num r) ((num, zlen (ref_content r) / 2), denote r).
Proof. exact L1_record. Qed.
Print Assumptions C03_record.

(** A whole file, any trailing bytes after the declared length: opening
    returns the header as stored; iterating (generic reader, or the typed
    reader when every record has its type) yields exactly what the records
    denote, in order, then ends. *)
Theorem C03_decodes_conformant : forall (req : option shape_type) (g : ref_file) (trailing : bytes),
  file_conformant g ->
  Forall (fun nr => accepts req (snd nr) /\ zlen (ref_content (snd nr)) < two31) (rf_records g) ->
  exists st s',
    run (st <-- r_new ;; x <-- it_pull (S (length (rf_records g))) req st ;; Ret (r_hdr st, x))
        (src_of (ref_shp g ++ trailing))
    = (Ok (header_of (rf_type g) (rf_box g) (declared_words g),
           (map (fun nr => Ok (denote (snd nr))) (rf_records g), true, st)), s').
Proof. exact read_all_noindex. Qed.
Print Assumptions C03_decodes_conformant.

(** Non-vacuity: a PolylineZ file with a null record and a two-part record
    without M block (a layout the library's writer never emits) is conformant,
    and the model reader run on its bytes followed by junk returns the null
    shape and the polyline with NO_DATA measures. *)
Definition ex_body : ref_body :=
  mkbody (1, 2, 3, 4) [0; 2] [] [(1, 2); (3, 4); (5, 6)] ((7, 8), [7; 8; 9]) None.
Definition ex_file : ref_file :=
  mkfile TPolylineZ [1; 2; 3; 4; 7; 8; 0; 0] [(7, RNull); (-3, RMulti TPolylineZ ex_body)].

Example C03_example_conformant : file_conformant ex_file.
Proof.
  unfold file_conformant, ex_file; cbn [rf_box rf_records rf_type].
  split; [reflexivity|]. split; [repeat constructor; unfold f64_ok, two64; lia|]. split.
  - constructor; [|constructor; [|constructor]]; cbn [fst snd ref_type rec_conformant].
    + split; [unfold in_i32, two31; lia|]. split; [exact I|right; reflexivity].
    + split; [unfold in_i32, two31; lia|]. split; [|left; reflexivity]. split; [reflexivity|].
      unfold body_conformant, ex_body; cbn; unfold f64_ok, two64, two31.
      repeat split; try lia; repeat constructor; cbn; try lia.
  - vm_compute. reflexivity.
Qed.

Example C03_example_run :
  fst (run (st <-- r_new ;; x <-- it_pull 3 None st ;; Ret (fst (fst x)))
           (src_of (ref_shp ex_file ++ [1; 2; 3])))
  = Ok [Ok SNull;
        Ok (SPolyline XYZM (mkbox (mkpt 1 2 7 F_NO_DATA) (mkpt 3 4 8 F_NO_DATA))
              [[mkpt 1 2 7 F_NO_DATA; mkpt 3 4 8 F_NO_DATA]; [mkpt 5 6 9 F_NO_DATA]])].
Proof. vm_compute. reflexivity. Qed.
