(** C11 — A crash at any point of writing never makes a reader see a wrong
    shape.  The theorems of the property, proved from the lemmas of
    Proofs/CrashStates.v and Proofs/CrashCommit.v (writer side), Proofs/CrashRead.v
    and Proofs/CrashIndex.v (reader side), Proofs/CommitTheorem.v and
    Proofs/CrashIndexTheorem.v (the two together), Proofs/HeaderMix.v,
    Proofs/TornLength.v. *)
From SF Require Import Model.Bytes Model.F64 Model.ShapeType Model.Shapes Model.Res Model.Encode Model.Writer
  Model.Prog Model.Decode Model.Reader Spec.Esri Spec.Denote Spec.Layout.
From SF Require Import Proofs.BytesLemmas Proofs.WriterCore Proofs.WriterInv Proofs.WriterFaults
  Proofs.BulkTail Proofs.EncodeRef
  Proofs.LayoutConf Proofs.RoundTrip Proofs.ReaderSeq Proofs.CrashRead Proofs.CrashStates Proofs.TornLength Proofs.HeaderMix
  Proofs.CrashCommit Proofs.CommitTheorem Proofs.IndexReader Proofs.IndexFiles Proofs.CrashIndex Proofs.CrashIndexTheorem.
Open Scope Z_scope.

(** The crash model is the property's own: what was persisted is the result
    of a prefix of the operations issued to the destination, the cut possibly
    falling inside a write — [is_prefix p (explode trace)], where [explode]
    splits every `write_all` into single bytes and [trace] is the operation log
    of the destination (compared with the real writer's log by the
    correspondence check).

    Writer side: after ANY history of writes and finalizes, every such prefix of
    the .shp operation sequence leaves H' ++ (a byte-prefix of the record
    stream of the accepted shapes), where H' is 100 bytes — any mixture of an
    old and a new header — or fewer with nothing after them. *)
Theorem C11_crash_states : forall (hs : bool) (cs : list wcall) (e : wending),
  Forall call_ok cs ->
  forall p, is_prefix p (explode (trace (w_shp (snd (run_history hs world0 cs e))))) ->
  crash_form (records_from 1 (accepted_acc [] cs)) (fst (bp_ops p ([], 0%nat))).
Proof. intros hs cs e. exact (crash_states Shp hs cs e eq_refl). Qed.
Print Assumptions C11_crash_states.

(** Reader side, for ANY 100 bytes in front (whatever length, type and box
    they declare) and any byte-prefix of a stream of conformant records: opening
    fails, or sequential reading yields a prefix of what the records denote,
    followed by at most one UnexpectedEof. *)
Theorem C11_read_any_header : forall (req : option shape_type) (H' : bytes) (rs : list (Z * ref_rec)) (m : Z) (fuel : nat),
  length H' = 100%nat -> Forall (record_ok req) rs -> 0 <= m <= zlen (ref_records_bytes rs) ->
  zlen (ref_records_bytes rs) < two31 * 4 ->
  let data := H' ++ firstn (Z.to_nat m) (ref_records_bytes rs) in
  (exists e s', run r_new (src_of data) = (Err e, s')) \/
  (exists j tail ended st' s',
     run (st <-- r_new ;; it_pull fuel req st) (src_of data)
     = (Ok (map (fun nr => Ok (denote (snd nr))) (firstn j rs) ++ tail, ended, st'), s') /\
     (tail = [] \/ tail = [Err EIoEof])).
Proof.
  intros req H' rs m fuel HH Hok Hm Hsmall data.
  destruct (crash_read_noindex_lb req H' rs m fuel HH Hok Hm Hsmall) as [(e & s' & _ & E)|(h & s1 & j & tail & ended & st' & s' & _ & E & Ht & _)].
  - left. exists e, s'. exact E.
  - right. exists j, tail, ended, st', s'. split; [exact E|exact Ht].
Qed.
Print Assumptions C11_read_any_header.

(** Together: whatever prefix of the .shp operations was persisted, a reader
    (generic or of the file's type, any number of pulls) opened on it without
    index either fails to open or yields shapes that form a prefix of the
    shapes written ([on_read] of them, C01), then at most one error: never a
    shape that was not written, never a reordered one, never a panic. *)
Theorem C11_crash_prefix : forall (hs : bool) (cs : list wcall) (e : wending) (req : option shape_type) (fuel : nat),
  Forall call_ok cs ->
  let ss := accepted_acc [] cs in
  Forall shape_ok ss -> FileFits ss -> RecordsFit ss -> (req = None \/ req = Some (file_type ss)) ->
  forall p, is_prefix p (explode (trace (w_shp (snd (run_history hs world0 cs e))))) ->
  let buf := fst (bp_ops p ([], 0%nat)) in
  (exists r s', run r_new (src_of buf) = (r, s') /\ forall st, r <> Ok st) \/
  (exists j tail ended st' s',
     run (st <-- r_new ;; it_pull fuel req st) (src_of buf)
     = (Ok (map (fun s => Ok (on_read s)) (firstn j ss) ++ tail, ended, st'), s') /\
     (tail = [] \/ tail = [Err EIoEof])).
Proof.
  intros hs cs e req fuel Hcs ss Hok Hf Hrf Hreq p Hp buf.
  pose proof (C11_crash_states hs cs e Hcs p Hp) as C. fold ss buf in C. rewrite records_is_ref in C.
  destruct (crash_form_cases _ _ C) as [Hshort|(H' & m & HH & Hm & ->)]; [left; exact (crash_read_short buf Hshort)|].
  rewrite <- (Nat2Z.id m).
  destruct (C11_read_any_header req H' _ (Z.of_nat m) fuel HH (written_records_ok req ss Hok (accepted_one_type0 cs) Hf Hrf Hreq)
              ltac:(unfold zlen; lia) (written_records_small ss Hf)) as [(e0 & s' & Er)|(j & tail & ended & st' & s' & Er & Ht)].
  - left. exists (Err e0), s'. split; [exact Er|discriminate].
  - right. exists j, tail, ended, st', s'. rewrite firstn_numbered_map in Er. split; [exact Er|exact Ht].
Qed.
Print Assumptions C11_crash_prefix.

(** L4: the length field of the header, torn at any of its 4 bytes between the
    value a written by an earlier finalize and the value b >= a being written,
    reads as a value >= a: a torn header never hides records an earlier
    finalize committed. *)
Theorem C11_torn_length_monotone : forall (a b : Z) (j : nat),
  0 <= a <= b -> b < two32 -> (j <= 4)%nat ->
  a <= of_be (firstn j (be_bytes 4 b) ++ skipn j (be_bytes 4 a)).
Proof. intros a b j Hab Hb Hj. exact (proj1 (torn_be32 a b j Hab Hb Hj)). Qed.
Print Assumptions C11_torn_length_monotone.

(** A header slot torn at any byte between two headers of the same file type
    (the older declaring len1 words, the newer len2 >= len1) is itself a
    well-formed header: same code, version and type, a length between len1 and
    2^31, some 64-bit patterns as box. *)
Theorem C11_torn_header : forall (t : shape_type) (box2 box1 : list f64) (len2 len1 : Z) (i : nat),
  length box1 = 8%nat -> length box2 = 8%nat -> 0 <= len1 <= len2 -> len2 < two31 ->
  exists box3 len3, mixb i (ref_header t box2 len2) (ref_header t box1 len1) = ref_header t box3 len3 /\
    length box3 = 8%nat /\ Forall f64_ok box3 /\ len1 <= len3 < two31.
Proof.
  intros t box2 box1 len2 len1 i L1 L2 Hl Hl2. unfold ref_header.
  rewrite mixb_app by reflexivity. rewrite mixb_same.
  rewrite mixb_app by reflexivity. rewrite mixb_same.
  rewrite mixb_app by (rewrite !i32_be_length; reflexivity).
  rewrite mixb_app by reflexivity. rewrite mixb_same.
  rewrite mixb_app by reflexivity. rewrite mixb_same.
  destruct (torn_len len1 len2 (i - length (i32_be 9994) - length (repeat_Z 0 20)) Hl Hl2) as (len3 & -> & H3).
  destruct (torn_f64s box2 box1 (i - length (i32_be 9994) - length (repeat_Z 0 20) - length (i32_be len2) - length (i32_le 1000)
                                 - length (i32_le (st_code t)))) as (box3 & -> & L3 & F3); [rewrite L1, L2; reflexivity|].
  exists box3, len3. split; [reflexivity|]. split; [rewrite L3; exact L2|]. split; assumption.
Qed.
Print Assumptions C11_torn_header.

(** Writer side of the last clause: once a finalize has completed with the
    shapes ss0 (not empty) — [tc] is the byte-exploded .shp trace up to and
    including it — every later crash state is
    (header of a later finalize torn over the header of the one before it)
    ++ (byte-prefix of the record stream holding all records of the later of
    the two), both headers being final headers of lists that extend ss0. *)
Theorem C11_committed_states : forall (hs : bool) (cs1 cs2 : list wcall) (e : wending),
  Forall call_ok cs1 -> Forall call_ok cs2 -> accepted_acc [] cs1 <> [] ->
  let tc := explode (trace (w_shp (shp_after hs (cs1 ++ [CFinalize])))) in
  forall p, is_prefix p (explode (trace (w_shp (snd (run_history hs world0 (cs1 ++ CFinalize :: cs2) e))))) ->
  is_prefix tc p ->
  committed_form (accepted_acc [] cs1) (accepted_acc [] (cs1 ++ CFinalize :: cs2)) (fst (bp_ops p ([], 0%nat))).
Proof.
  intros hs cs1 cs2 e H1 H2 Hne tc.
  destruct (run_calls_closed _ (crash_closed Shp hs eq_refl) cs1 (w_new hs) world0 [] (conj (WInv_init hs) crash_init) (Forall_nil _) H1)
    as (st1 & w1 & E1 & [Inv1 HC1] & Hnn0).
  set (ss0 := accepted_acc [] cs1) in *.
  destruct (finalize_step hs st1 w1 ss0 Inv1) as (st1' & w1' & Ef & Inv1' & Hd1).
  pose proof (finalize_crash Shp hs eq_refl st1 w1 ss0 Inv1 HC1) as HC1'. rewrite Ef in HC1'. cbn [snd get_dev stream] in HC1'.
  pose proof (commit_established hs st1' w1' ss0 Inv1' Hd1 HC1') as HI1.
  assert (Etc : tc = explode (trace (w_shp w1'))).
  { unfold tc, shp_after. rewrite run_calls_app, E1. cbn [run_calls]. rewrite Ef. reflexivity. }
  rewrite <- Etc in HI1.
  destruct (run_calls_closed _ (commit_closed tc hs ss0 Hne) cs2 st1' w1' ss0 (conj Inv1' HI1) Hnn0 H2)
    as (st2 & w2 & E2 & P2 & _).
  rewrite accepted_acc_app. change (accepted_acc (accepted_acc [] cs1) (CFinalize :: cs2)) with (accepted_acc ss0 cs2).
  assert (E : run_calls (cs1 ++ CFinalize :: cs2) (w_new hs) world0 = (_, st2, w2))
    by (rewrite run_calls_app, E1; cbn [run_calls]; rewrite Ef, E2; reflexivity).
  refine (ending_closed _ (fun w ss => forall p, is_prefix p (explode (trace (w_shp w))) -> is_prefix tc p ->
                                       committed_form ss0 ss (fst (bp_ops p ([], 0%nat))))
            (commit_closed tc hs ss0 Hne) _ hs world0 _ e _ st2 w2 _ E P2).
  intros st w ss [Inv HI] p. exact (Cuts_cut _ _ _ p (CommitInv_cuts _ _ _ _ (finalize_commit tc hs ss0 st w ss Inv HI))).
Qed.
Print Assumptions C11_committed_states.

(** Everything written before a finalize that completed on the .shp remains
    readable from it: on EVERY crash state after that finalize (any byte cut
    of any later operation, later finalizes' torn headers included) a reader
    without index opens the file and yields at least the committed shapes —
    still a prefix of the shapes written, then at most one UnexpectedEof. *)
Theorem C11_committed_readable : forall (hs : bool) (cs1 cs2 : list wcall) (e : wending) (req : option shape_type) (fuel : nat),
  Forall call_ok cs1 -> Forall call_ok cs2 ->
  let ss0 := accepted_acc [] cs1 in
  let ss := accepted_acc [] (cs1 ++ CFinalize :: cs2) in
  ss0 <> [] -> Forall shape_ok ss -> FileFits ss -> RecordsFit ss -> (req = None \/ req = Some (file_type ss)) ->
  (length ss0 <= fuel)%nat ->
  let tc := explode (trace (w_shp (shp_after hs (cs1 ++ [CFinalize])))) in
  forall p, is_prefix p (explode (trace (w_shp (snd (run_history hs world0 (cs1 ++ CFinalize :: cs2) e))))) ->
  is_prefix tc p ->
  let buf := fst (bp_ops p ([], 0%nat)) in
  exists j tail ended st' s',
    run (st <-- r_new ;; it_pull fuel req st) (src_of buf)
    = (Ok (map (fun s => Ok (on_read s)) (firstn j ss) ++ tail, ended, st'), s') /\
    (tail = [] \/ tail = [Err EIoEof]) /\ (length ss0 <= j)%nat.
Proof.
  intros hs cs1 cs2 e req fuel H1 H2 ss0 ss Hne Hok Hf Hrf Hreq Hfuel tc p Hp Hext buf.
  destruct (C11_committed_states hs cs1 cs2 e H1 H2 Hne p Hp Hext) as (i & ssA & ssB & m & E & P1 & P2 & P3 & Hm).
  fold ss0 ss buf in E, P1, P3.
  (* the torn header is a header of the file's type declaring at least the words of ssA *)
  assert (P0B : lpre ss0 ssB) by (eapply lpre_trans; eassumption).
  pose proof (FileFits_lpre ssB ss P3 Hf) as HfB. pose proof (FileFits_lpre ssA ss (lpre_trans _ _ _ P2 P3) Hf) as HfA.
  rewrite (final_hdr_ref ssB HfB), (final_hdr_ref ssA HfA), (file_type_lpre ss0 ssB Hne P0B), (file_type_lpre ss0 ssA Hne P1) in E.
  assert (Hlen : 0 <= file_words ssA <= file_words ssB).
  { split; [unfold file_words; pose proof (sum_words_nonneg ssA); lia|apply file_words_lpre; exact P2]. }
  destruct (C11_torn_header (file_type ss0) _ _ _ _ i (box8_length (h_box (final_hdr ssA))) (box8_length (h_box (final_hdr ssB))) Hlen HfB)
    as (box3 & len3 & Emix & L3 & F3 & Hl3).
  rewrite Emix, records_is_ref, firstn_min in E. set (rs := numbered 1 (map rec_of_shape ss)) in *.
  destruct (crash_read_ref_header req (file_type ss0) box3 len3 rs (Nat.min m (length (ref_records_bytes rs))) fuel L3 F3 ltac:(lia)
              (written_records_ok req ss Hok (accepted_one_type0 _) Hf Hrf Hreq) (Nat.le_min_r _ _) (written_records_small ss Hf))
    as (j & tail & ended & st' & s' & Er & Ht & Hlb).
  rewrite <- E in Er. unfold rs in Er. rewrite firstn_numbered_map in Er.
  exists j, tail, ended, st', s'. split; [exact Er|]. split; [exact Ht|].
  (* the committed records are retained (m covers the records of ssB) and declared (len3 covers those of ssA) *)
  destruct (lpre_trans _ _ _ P0B P3) as [x Ess].
  apply Hlb; [exact Hfuel|unfold rs; rewrite numbered_length, map_length, Ess, app_length; lia| |];
    unfold rs at 1; rewrite Ess, committed_records_ref.
  - pose proof (records_lpre_len ss0 ssB P0B). pose proof (records_lpre_len ssB ss P3).
    unfold rs. rewrite <- records_is_ref. unfold zlen. lia.
  - rewrite zlen_records_from. pose proof (file_words_lpre ss0 ssA P1) as Hw. unfold file_words in Hw at 1. lia.
Qed.
Print Assumptions C11_committed_readable.

(** ** The route through the index

    Reader side, general: with ANY index whose entries address records of a
    file ([Indexed]: any order, gaps, filler), on ANY truncation of that file,
    the reader fails to open or answers index entry i with the record it
    addresses when that record lies wholly inside the retained bytes, and with
    UnexpectedEof otherwise ([item_at]) — never a shape that is not in the
    file, never one out of index order, never a panic. *)
Theorem C11_read_index_truncated : forall (req : option shape_type) (data : bytes) (idx : list (Z * Z))
    (recs : list (Z * ref_rec)) (K : Z) (fuel : nat),
  Indexed req data idx recs -> 0 <= K ->
  let cut := firstn (Z.to_nat K) data in
  (exists r s', run (r_with_shx idx) (src_of cut) = (r, s') /\ forall st, r <> Ok st) \/
  (exists st' s',
     run (st <-- r_with_shx idx ;; it_pull fuel req st) (src_of cut)
     = (Ok (firstn fuel (items_all K idx recs), (length (items_all K idx recs) <? fuel)%nat, st'), s')).
Proof. exact crash_read_index. Qed.
Print Assumptions C11_read_index_truncated.

(** What a reader makes of a crash state of the .shx — any 100 bytes followed by
    a byte-prefix of the true index entries: reading the index fails, or
    returns a prefix of the true entries (a torn entry is never returned, a
    header announcing more entries than are there makes the read fail). *)
Theorem C11_index_from_crash_state : forall (Hx' : bytes) (entries : list (Z * Z)) (mx : nat) (idx : list (Z * Z)) (s' : src),
  length Hx' = 100%nat -> Forall (fun e => in_i32 (fst e) /\ in_i32 (snd e)) entries ->
  run read_index_file (src_of (Hx' ++ firstn mx (index_bytes entries))) = (Ok idx, s') ->
  exists c, idx = firstn c entries /\ (c <= length entries)%nat.
Proof. exact read_index_crash. Qed.
Print Assumptions C11_index_from_crash_state.

(** Together, for files laid out in index order (what the writer produces):
    any 100 bytes in front of any byte-prefix of the records, read with any
    prefix of the true index: the reader fails to open, or yields a prefix of
    the records followed by UnexpectedEof errors only. *)
Theorem C11_crash_index_ordered : forall (req : option shape_type) (H' : bytes) (rs : list (Z * ref_rec)) (m c fuel : nat),
  length H' = 100%nat -> Forall (record_ok req) rs -> zlen (ref_records_bytes rs) < two31 * 4 ->
  let shp := H' ++ firstn m (ref_records_bytes rs) in
  let idx := firstn c (ref_index_entries 50 rs) in
  (exists r s', run (r_with_shx idx) (src_of shp) = (r, s') /\ forall st, r <> Ok st) \/
  (exists j st' s',
     run (st <-- r_with_shx idx ;; it_pull fuel req st) (src_of shp)
     = (Ok (firstn fuel (map (fun nr => Ok (denote (snd nr))) (firstn j (firstn c rs))
                         ++ map (fun _ => Err EIoEof) (skipn j (firstn c rs))),
            (length (firstn c rs) <? fuel)%nat, st'), s')).
Proof.
  intros req H' rs m c fuel HH Hok Hsmall shp idx. set (R := ref_records_bytes rs) in *.
  set (data := H' ++ R). set (K := 100 + Z.of_nat m).
  assert (Ecut : shp = firstn (Z.to_nat K) data).
  { unfold shp, data, K. replace (Z.to_nat (100 + Z.of_nat m)) with (length H' + m)%nat by lia. symmetry. apply firstn_app_2. }
  set (rc := firstn c rs).
  assert (Hokc : Forall (record_ok req) rc) by apply Forall_firstn_, Hok.
  assert (HI : Indexed req data (ref_index_entries 50 rc) rc).
  { split.
    - unfold data, R. rewrite <- (firstn_skipn c rs) at 1. fold rc. rewrite ref_records_bytes_app.
      apply index_addresses; [unfold zlen; rewrite HH; reflexivity|lia|exact Hokc].
    - unfold data. rewrite zlen_app. unfold zlen at 1. rewrite HH. fold R. unfold two31, two63 in *. lia. }
  unfold idx. rewrite firstn_ref_index_entries. fold rc.
  destruct (crash_read_index req data (ref_index_entries 50 rc) rc K fuel HI ltac:(unfold K; lia)) as [Hfail|(st' & s' & Hrun)].
  - left. rewrite Ecut. exact Hfail.
  - right. rewrite <- Ecut in Hrun.
    destruct (items_all_ordered K rc 50) as (j & Ej). rewrite Ej in Hrun.
    exists j, st', s'. rewrite Hrun. do 3 f_equal.
    rewrite app_length, !map_length, <- app_length, firstn_skipn. reflexivity.
Qed.
Print Assumptions C11_crash_index_ordered.

(** Writer side for the second destination: every byte-level prefix of the
    .shx operation sequence of any history leaves Hx' ++ (byte-prefix of the
    index entries of the accepted shapes). *)
Theorem C11_crash_states_shx : forall (cs : list wcall) (e : wending),
  Forall call_ok cs ->
  forall p, is_prefix p (explode (trace (w_shx (snd (run_history true world0 cs e))))) ->
  crash_form (index_from 50 (accepted_acc [] cs)) (fst (bp_ops p ([], 0%nat))).
Proof. intros cs e. exact (crash_states Shx true cs e eq_refl). Qed.
Print Assumptions C11_crash_states_shx.

(** The property for readers opened WITH the index: whatever prefix of the
    .shp operations and, independently, whatever prefix of the .shx operations
    was persisted (cuts inside writes included), if the index can be read at
    all, then the reader either fails to open or answers the index entries
    with a prefix of the written shapes ([on_read] of them) followed by
    UnexpectedEof errors only: never a shape that was not written, never a
    reordered one, never a panic. *)
Theorem C11_crash_prefix_index : forall (cs : list wcall) (e : wending) (req : option shape_type) (fuel : nat),
  Forall call_ok cs ->
  let ss := accepted_acc [] cs in
  Forall shape_ok ss -> FileFits ss -> RecordsFit ss -> (req = None \/ req = Some (file_type ss)) ->
  let w := snd (run_history true world0 cs e) in
  forall p, is_prefix p (explode (trace (w_shp w))) ->
  forall px, is_prefix px (explode (trace (w_shx w))) ->
  let shp := fst (bp_ops p ([], 0%nat)) in
  let shx := fst (bp_ops px ([], 0%nat)) in
  forall idx sx, run read_index_file (src_of shx) = (Ok idx, sx) ->
  (exists r s', run (r_with_shx idx) (src_of shp) = (r, s') /\ forall st, r <> Ok st) \/
  (exists j n st' s', (j <= n)%nat /\ (n <= length ss)%nat /\
     run (st <-- r_with_shx idx ;; it_pull fuel req st) (src_of shp)
     = (Ok (firstn fuel (map (fun s => Ok (on_read s)) (firstn j ss) ++ repeat (Err EIoEof) (n - j)),
            (n <? fuel)%nat, st'), s')).
Proof.
  intros cs e req fuel Hcs ss Hok Hf Hrf Hreq w p Hp px Hpx shp shx idx sx Hidx.
  pose proof (C11_crash_states true cs e Hcs p Hp) as C. pose proof (C11_crash_states_shx cs e Hcs px Hpx) as Cx.
  fold ss w shp in C. fold ss w shx in Cx.
  destruct (shx_crash_index ss shx idx sx Hf Cx Hidx) as (c & ->).
  rewrite records_is_ref in C. set (rs := numbered 1 (map rec_of_shape ss)) in *.
  destruct (crash_form_cases _ _ C) as [Hshort|(H' & m & HH & _ & ->)].
  { left. exact (short_open (fun h => mkr h (Some _) 100 0) shp Hshort). }
  destruct (C11_crash_index_ordered req H' rs m c fuel HH (written_records_ok req ss Hok (accepted_one_type0 cs) Hf Hrf Hreq)
              (written_records_small ss Hf)) as [Hfail|(j & st' & s' & Hrun)]; [left; exact Hfail|right].
  set (l := firstn c rs) in *. set (n := length l).
  assert (Hnc : (n <= c)%nat) by apply firstn_le_length.
  (* the j of [items_all_ordered] may exceed the length *)
  exists (Nat.min j n), n, st', s'. split; [lia|].
  split; [unfold n, l, rs; rewrite firstn_length, numbered_length, map_length; lia|].
  rewrite Hrun. do 6 f_equal.
  - rewrite (firstn_min j l). fold n. unfold l. rewrite firstn_firstn, (Nat.min_l _ c) by lia.
    unfold rs. apply firstn_numbered_map.
  - rewrite map_const_repeat, skipn_length. fold n. f_equal. lia.
Qed.
Print Assumptions C11_crash_prefix_index.

(** Non-vacuity: a crash 11 bytes into the second record (before any finalize: the placeholder header still declares an empty file). *)
Example C11_example :
  let p := SPoint XY (mkpt 1 2 0 0) in
  let tr := trace (w_shp (snd (run_history false world0 [CWrite p; CWrite p] EDrop))) in
  let cut := firstn 140 (explode tr) in
  is_prefix cut (explode tr) /\ zlen (fst (bp_ops cut ([], 0%nat))) = 139 /\
  fst (run (st <-- r_new ;; x <-- it_pull 5 None st ;; Ret (fst (fst x))) (src_of (fst (bp_ops cut ([], 0%nat)))))
  = Ok ([] : list (res shape)).
Proof.
  cbv zeta. split.
  - set (l := explode _). rewrite <- (firstn_skipn 140 l) at 2. apply is_prefix_app.
  - split; vm_compute; reflexivity.
Qed.

(** Non-vacuity of the last clause: one point committed by a finalize, a second
    point written, and a crash 30 bytes into the header rewrite of the second
    finalize (inside the length field, whose first two bytes are rewritten):
    the reader still yields the committed point. *)
Example C11_example_committed :
  let p := SPoint XY (mkpt 1 2 0 0) in
  let cs1 := [CWrite p] in let cs2 := [CWrite p] in
  let tc := explode (trace (w_shp (shp_after false (cs1 ++ [CFinalize])))) in
  let tr := explode (trace (w_shp (snd (run_history false world0 (cs1 ++ CFinalize :: cs2) EDrop)))) in
  let cut := firstn (length tc + 28 + 1 + 26) tr in
  is_prefix cut tr /\ is_prefix tc cut /\
  fst (run (st <-- r_new ;; x <-- it_pull 5 None st ;; Ret (fst (fst x))) (src_of (fst (bp_ops cut ([], 0%nat)))))
  = Ok [Ok p].
Proof.
  cbv zeta. split; [|split].
  - set (l := explode (trace (w_shp (snd (run_history _ _ _ _))))). rewrite <- (firstn_skipn (length (explode (trace (w_shp (shp_after false ([CWrite (SPoint XY (mkpt 1 2 0 0))] ++ [CFinalize]))))) + 28 + 1 + 26) l) at 2. apply is_prefix_app.
  - (* [repeat constructor] on the evaluated lists builds a proof quadratic in their length *)
    match goal with |- is_prefix ?tc ?cut => replace cut with (tc ++ skipn (length tc) cut) by (vm_compute; reflexivity) end.
    apply is_prefix_app.
  - vm_compute. reflexivity.
Qed.

(** Non-vacuity of the index route: two points, both files cut: the .shx after
    its first finalize (2 entries announced and present), the .shp 11 bytes
    into the second record: the reader yields the first point, then an error. *)
Example C11_example_index :
  let p := SPoint XY (mkpt 1 2 0 0) in
  let w := snd (run_history true world0 [CWrite p; CWrite p] EDrop) in
  let cutp := firstn 140 (explode (trace (w_shp w))) in
  let shp := fst (bp_ops cutp ([], 0%nat)) in
  let shx := fst (bp_ops (explode (trace (w_shx w))) ([], 0%nat)) in
  exists idx, fst (run read_index_file (src_of shx)) = Ok idx /\ length idx = 2%nat /\
    fst (run (st <-- r_with_shx idx ;; x <-- it_pull 5 None st ;; Ret (fst (fst x))) (src_of shp))
    = Ok [Ok p; Err EIoEof].
Proof. cbv zeta. eexists. split; [vm_compute; reflexivity|]. split; vm_compute; reflexivity. Qed.

