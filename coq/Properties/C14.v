(** C14 — With an index, records are located by the index alone.
    The theorems of the property, proved from the lemmas of Proofs/IndexReader.v,
    Proofs/IndexFiles.v. *)
From SF Require Import Model.Bytes Model.F64 Model.ShapeType Model.Shapes Model.Res Model.Prog Model.Reader
  Spec.Esri.
From SF Require Import Proofs.RecordL1 Proofs.ReaderSeq Proofs.IndexReader Proofs.IndexFiles.
From SF Require Properties.C15.
Open Scope Z_scope.

(** [Indexed req data idx recs]: entry i of the index holds an offset (in
    16-bit words) at which the bytes of [data] start with the whitepaper bytes
    of the conformant record [recs_i] — nothing else is assumed about [data]:
    filler of any length and content before, between and after the records,
    any physical order, even overlapping records.

    For any such .shp (valid header, whatever declared length) and any history
    of reader calls — iterate (any number of items), random access, seek,
    count, size hint — every call returns what the abstract reader
    (records in index order, next position) returns: iteration yields one
    shape per index entry in index order, each the record at that entry's
    offset; random access at i returns the same record i; the count is the
    number of entries. *)
Theorem C14_index_governs :
  forall (req : option shape_type) (t : shape_type) (box : list f64) (len : Z) (rest : bytes)
         (idx : list (Z * Z)) (recs : list (Z * ref_rec)) (cs : list rcall),
  length box = 8%nat -> Forall f64_ok box -> in_i32 len ->
  Indexed req (ref_header t box len ++ rest) idx recs -> Forall rcall_wf cs ->
  exists st' s',
    run (st <-- r_with_shx idx ;; x <-- r_calls req st cs ;; Ret (r_hdr st, fst x)) (src_of (ref_header t box len ++ rest))
    = (Ok (header_of t box len, abs_calls (shapes_of recs) 0 cs), s') /\
    RInv (ref_header t box len ++ rest) idx st' s'.
Proof. exact index_governs. Qed.
Print Assumptions C14_index_governs.

(** The abstract reader, spelled out: a full iteration from a fresh reader
    yields every record in index order and ends; random access agrees with it. *)
Theorem C14_iteration_is_index_order : forall (shapes : list shape) (fuel : nat),
  (length shapes < fuel)%nat ->
  abs_calls shapes 0 [RIter fuel; RCount] = [OItems (map Ok shapes) true; OCountR (Ok (zlen shapes))].
Proof.
  intros shapes fuel H. cbn [abs_calls]. rewrite (C15.C15_iteration shapes 0 fuel) by lia. reflexivity.
Qed.

Theorem C14_nth_agrees : forall (shapes : list shape) (k : nat) (i : Z),
  fst (abs_call shapes k (RNth i))
  = ONthR (match nth_error shapes (Z.to_nat i) with Some x => Some (Ok x) | None => None end).
Proof. intros. cbn [abs_call]. destruct (nth_error shapes (Z.to_nat i)); reflexivity. Qed.
Print Assumptions C14_nth_agrees.

(** Non-vacuity: two point records stored in reverse physical order with
    filler before, between and after them; the model reader run on it. *)
Definition ex_data : bytes :=
  ref_header TPoint [0;0;0;0;0;0;0;0] 90 ++ [7;7] ++ ref_record 2 (RPoint 3 4) ++ [9;9;9;9] ++ ref_record 1 (RPoint 1 2) ++ [5;5].
Definition ex_idx : list (Z * Z) := [(51 + 14 + 2, 10); (51, 10)].
Example C14_example :
  Indexed None ex_data ex_idx [(1, RPoint 1 2); (2, RPoint 3 4)] /\
  fst (run (st <-- r_with_shx ex_idx ;; x <-- r_calls None st [RIter 5; RNth 1; RIter 1] ;; Ret (fst x)) (src_of ex_data))
  = Ok [OItems [Ok (SPoint XY (mkpt 1 2 0 0)); Ok (SPoint XY (mkpt 3 4 0 0))] true;
        ONthR (Some (Ok (SPoint XY (mkpt 3 4 0 0))));
        OItems [Ok (SPoint XY (mkpt 1 2 0 0))] false].
Proof.
  split; [|vm_compute; reflexivity]. split; [|vm_compute; reflexivity].
  assert (Ok1 : forall n x y, in_i32 n -> f64_ok x -> f64_ok y -> zlen (ref_content (RPoint x y)) < two31 ->
                record_ok None (n, RPoint x y)).
  { intros n x y Hn Hx Hy Hz. unfold record_ok. cbn [fst snd rec_conformant accepts]. auto. }
  constructor; [|constructor; [|constructor]]; unfold stored_at; cbn [fst snd].
  - split; [lia|]. split; [eexists; vm_compute; reflexivity|].
    apply Ok1; [unfold in_i32, two31; lia|unfold f64_ok, two64; lia|unfold f64_ok, two64; lia|vm_compute; reflexivity].
  - split; [lia|]. split; [eexists; vm_compute; reflexivity|].
    apply Ok1; [unfold in_i32, two31; lia|unfold f64_ok, two64; lia|unfold f64_ok, two64; lia|vm_compute; reflexivity].
Qed.
