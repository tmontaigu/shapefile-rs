(** C05 — Stored bounding boxes are exact: per shape and in the file header.
    The theorems of the property, proved from the lemmas of Proofs/F64Order.v,
    Proofs/BoxExact.v, Proofs/HeaderBox.v. *)
From SF Require Import Model.Bytes Model.F64 Model.Shapes Model.Res Model.Encode Model.Construct
  Model.Writer Spec.Layout.
From SF Require Import Proofs.F64Order Proofs.BoxExact Proofs.HeaderBox Proofs.WriterInv Proofs.EncodeRef.
From SF Require Import Properties.C02.
Open Scope Z_scope.

(** Per shape: whatever a public constructor of a multi-vertex shape returns
    (multipoint; polyline new / with_parts; polygon new / with_rings, after
    closing and reordering; multipatch new / with_parts, after closing), if no
    coordinate of the result is NaN its box is exact: in X and Y — and Z, M
    where the point type has them — each minimum is bit for bit the value of
    some vertex and is <= the value of every vertex, each maximum dually;
    wherever the extreme vertex sits. *)
Theorem C05_shape_box : forall (s : shape),
  (exists d ps, mk_multipoint d ps = Ok s) \/ (exists d ps, mk_polyline_new d ps = Ok s) \/
  (exists d parts, mk_polyline d parts = Ok s) \/ (exists d ring, mk_polygon_new d ring = Ok s) \/
  (exists d rings, mk_polygon d rings = Ok s) \/ (exists patches, mk_multipatch patches = Ok s) ->
  shape_nn s -> shape_box_exact s.
Proof.
  intros s H Hn. destruct H as [(d & ps & H)|[(d & ps & H)|[(d & ps & H)|[(d & r & H)|[(d & rs & H)|(ps & H)]]]]].
  - apply mk_multipoint_inv in H. destruct H as (b & Hb & ->). exact (single_part_box d ps b Hb Hn).
  - apply mk_polyline_new_inv in H. destruct H as (b & Hb & ->). exact (single_part_box d ps b Hb Hn).
  - apply mk_polyline_inv in H. destruct H as (b & Hb & ->). exact (box_from_parts_exact d ps b Hb Hn).
  - unfold mk_polygon_new in H. apply mk_polygon_inv in H. destruct H as (b & Hb & ->). exact (box_from_parts_exact d _ b Hb Hn).
  - apply mk_polygon_inv in H. destruct H as (b & Hb & ->). exact (box_from_parts_exact d _ b Hb Hn).
  - apply mk_multipatch_inv in H. destruct H as (b & Hb & ->). exact (box_from_parts_exact XYZM _ b Hb Hn).
Qed.
Print Assumptions C05_shape_box.

(** The box of a shape is what its record stores and what the writer folds into
    the header: for a multi-vertex shape the range in a carried dimension is
    (box minimum, box maximum). *)
Definition box_of (s : shape) : option bbox :=
  match s with SMultipoint _ b _ | SPolyline _ b _ | SPolygon _ b _ | SMultipatch b _ => Some b | _ => None end.

Theorem C05_range_is_box : forall (s : shape) (b : bbox) (c : coord),
  box_of s = Some b -> carried (type_of s) c = true -> range c s = (get c (bmin b), get c (bmax b)).
Proof.
  intros s b c Hb Hc. destruct s as [|d p|d b0 ps|d b0 ps|d b0 ps|b0 ps]; cbn [box_of] in Hb; try discriminate;
    injection Hb as ->; destruct c; try reflexivity; try (destruct d; cbn in Hc; try discriminate; reflexivity).
Qed.
Print Assumptions C05_range_is_box.

(** File header, after any history of writes and finalizes (>= 1 accepted
    shape): the 64 bytes of the header box are [box8 (h_box (final_hdr ss))]
    (C02_emits_spec), and in every dimension the file's type carries — X and Y
    always, Z for Z-typed and multipatch files, M for measured and Z-typed
    files — the stored minimum is bit for bit the range minimum of some
    written shape and is <= that of every written shape, the maximum dually;
    wherever in the sequence the extreme shape sits. *)
Theorem C05_header_box : forall (cs : list wcall) (c : coord),
  let ss := accepted_acc [] cs in
  ss <> [] -> carried (file_type ss) c = true -> Forall (range_good c) ss ->
  let hb := h_box (final_hdr ss) in
  In (get c (bmin hb)) (map (fun s => fst (range c s)) ss) /\
  Forall (fun s => f64_le (get c (bmin hb)) (fst (range c s)) = true) ss /\
  In (get c (bmax hb)) (map (fun s => snd (range c s)) ss) /\
  Forall (fun s => f64_le (snd (range c s)) (get c (bmax hb)) = true) ss.
Proof.
  intros cs c ss Hne Hc Hg hb.
  destruct (header_box_carried ss (file_type ss) c Hne (Proofs.RoundTrip.accepted_one_type0 cs) Hc Hg) as [Hmin Hmax].
  apply extreme_of_map in Hmin, Hmax. exact (conj (proj1 Hmin) (conj (proj2 Hmin) Hmax)).
Qed.
Print Assumptions C05_header_box.

(** Dimensions the file's type does not carry are stored as +0.0 (n >= 0 shapes). *)
Theorem C05_header_absent : forall (cs : list wcall) (c : coord),
  let ss := accepted_acc [] cs in
  carried (file_type ss) c = false ->
  get c (bmin (h_box (final_hdr ss))) = 0 /\ get c (bmax (h_box (final_hdr ss))) = 0.
Proof.
  intros cs c ss Hc. apply (header_box_absent ss (file_type ss) c); [|exact Hc].
  apply Proofs.RoundTrip.accepted_one_type0.
Qed.
Print Assumptions C05_header_absent.

(** Non-vacuity: a polygon whose later ring is a single extreme vertex, and a
    file whose Z values are all +inf. *)
Example C05_example_shape :
  exists s, mk_polygon XYZM [(Outer, [mkpt 0 0 F_INF 1; mkpt 0 1 F_INF 2; mkpt 1 1 F_INF 3]); (Inner, [mkpt 9 9 F_INF 0])] = Ok s /\
            shape_nn s /\ box_of s = Some (mkbox (mkpt 0 0 F_INF 0) (mkpt 9 9 F_INF 3)).
Proof.
  eexists. split; [vm_compute; reflexivity|]. split; [|reflexivity].
  repeat constructor; intros c; destruct c; intros _; reflexivity.
Qed.

Example C05_example_header :
  let p := SPoint XYZM (mkpt 1 2 F_INF 5) in
  box8 (h_box (final_hdr [p; p])) = [1; 2; 1; 2; F_INF; F_INF; 5; 5].
Proof. vm_compute. reflexivity. Qed.
