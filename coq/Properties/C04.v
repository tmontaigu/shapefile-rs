(** C04 — The .shx written alongside a .shp addresses exactly its records.
    The theorems of the property, proved from C02 and the lemmas of
    Proofs/WriterInv.v, Proofs/EncodeRef.v, Proofs/RoundTrip.v, Proofs/IndexFiles.v. *)
From SF Require Import Model.Bytes Model.ShapeType Model.Shapes Model.Res Model.Encode Model.Writer
  Model.Prog Model.Decode Model.Reader Spec.Esri Spec.Layout.
From SF Require Import Proofs.BytesLemmas Proofs.ReaderSeq Proofs.WriterInv Proofs.EncodeRef
  Proofs.LayoutConf Proofs.RoundTrip
  Proofs.IndexReader Proofs.IndexFiles.
From SF Require Import Properties.C02.
Open Scope Z_scope.

(** After any history of writes and finalizes with an index destination, the
    .shx is the whitepaper index of the .shp: the same header except for the
    length field, which is 50 + 4n words, followed by one entry per record. *)
Theorem C04_shx_layout : forall (cs : list wcall) (e : wending),
  Forall call_wf cs ->
  let ss := accepted_acc [] cs in
  FileFits ss ->
  snd (files (snd (run_history true world0 cs e)))
  = ref_header (file_type ss) (box8 (h_box (final_hdr ss))) (50 + 4 * zlen ss)
    ++ flat_map (fun e => i32_be (fst e) ++ i32_be (snd e)) (ref_index_entries 50 (numbered 1 (map rec_of_shape ss))).
Proof.
  intros cs e Hwf ss Hf. rewrite (C02_emits_spec true cs e Hwf Hf). cbn [snd]. fold ss.
  unfold ref_shx, ref_shx_of, layout. cbn [rf_type rf_box rf_records].
  rewrite zlen_ref_index_entries, zlen_numbered, zlen_map. reflexivity.
Qed.
Print Assumptions C04_shx_layout.

(** Entry i holds (offset, content length) of record i: content length =
    (size_in_bytes + 4)/2 words, offsets start at 50 and advance by 4 + content
    length — and at byte 2*offset of the .shp the record's header starts. *)
Theorem C04_entries : forall (ss : list shape) (off i : Z),
  ref_index_entries off (numbered i (map rec_of_shape ss))
  = (fix go (off : Z) (l : list shape) : list (Z * Z) :=
       match l with [] => [] | s :: r => (off, record_words s) :: go (off + 4 + record_words s) r end) off ss.
Proof.
  intros ss. induction ss as [|s r IH]; intros off i; [reflexivity|].
  cbn [map numbered ref_index_entries]. rewrite <- record_words_ref, IH. reflexivity.
Qed.
Print Assumptions C04_entries.

Theorem C04_entries_address_records : forall (req : option shape_type) (g : ref_file) (trailing : bytes),
  file_conformant g -> Forall (record_ok req) (rf_records g) -> zlen trailing < two32 ->
  Indexed req (ref_shp g ++ trailing) (ref_index_entries 50 (rf_records g)) (rf_records g).
Proof. exact conformant_indexed. Qed.
Print Assumptions C04_entries_address_records.

(** A reader given both files, for every history of calls (iterate any number
    of items, random access at any i, seek, count, size hint): the index parses
    to n entries and every call returns what the abstract reader over the
    written shapes returns — shape_count = n, random access at i < n = the
    i-th shape of sequential iteration, nothing for i >= n, size hint = number
    of shapes still to come (see [abs_call]), iteration identical to the one
    without index (C01_roundtrip_seq). *)
Theorem C04_reader : forall (req : option shape_type) (cs : list wcall) (e : wending) (rcs : list rcall),
  Forall call_wf cs ->
  let ss := accepted_acc [] cs in
  FileFits ss -> RecordsFit ss -> (req = None \/ req = Some (file_type ss)) -> Forall rcall_wf rcs ->
  let fs := files (snd (run_history true world0 cs e)) in
  exists idx,
    fst (run read_index_file (src_of (snd fs))) = Ok idx /\ zlen idx = zlen ss /\
    exists s',
      run (st <-- r_with_shx idx ;; x <-- r_calls req st rcs ;; Ret (r_hdr st, fst x)) (src_of (fst fs))
      = (Ok (header_of (file_type ss) (box8 (h_box (final_hdr ss))) (file_words ss),
             abs_calls (map on_read ss) 0 rcs), s').
Proof.
  intros req cs e rcs Hwf ss Hf Hrf Hreq Hr fs. subst fs.
  rewrite (history_files true cs e (call_wf_ok cs Hwf)). cbn [fst snd]. fold ss.
  apply written_then_read_index; try assumption; [apply accepted_wf, Hwf|apply accepted_one_type0].
Qed.
Print Assumptions C04_reader.

(** The abstract reader's size hint and count. *)
Theorem C04_hint_and_count : forall (shapes : list shape) (k : nat),
  fst (abs_call shapes k RHint) = OHintR (Some (zlen shapes - Z.of_nat k)) /\
  fst (abs_call shapes k RCount) = OCountR (Ok (zlen shapes)).
Proof. intros; split; reflexivity. Qed.

(** Non-vacuity: shapes of different sizes, so that offsets are not an
    arithmetic progression. *)
Example C04_example :
  let a := SMultipoint XY (mkbox (mkpt 1 2 0 0) (mkpt 1 2 0 0)) [mkpt 1 2 0 0] in
  let b := SMultipoint XY (mkbox (mkpt 1 2 0 0) (mkpt 3 4 0 0)) [mkpt 1 2 0 0; mkpt 3 4 0 0; mkpt 1 4 0 0] in
  let cs := [CWrite a; CWrite b; CFinalize; CWrite a] in
  Forall call_wf cs /\ FileFits (accepted_acc [] cs) /\
  ref_index_entries 50 (numbered 1 (map rec_of_shape [a; b; a])) = [(50, 28); (82, 44); (130, 28)].
Proof.
  cbv zeta. split; [repeat constructor; unfold f64_ok, two64; cbn; lia|]. split; vm_compute; reflexivity.
Qed.
