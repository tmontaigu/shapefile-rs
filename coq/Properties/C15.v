(** C15 — Reader results do not depend on what was called before.
    The theorems of the property, proved from the lemmas of Proofs/IndexReader.v. *)
From SF Require Import Model.Bytes Model.ShapeType Model.Shapes Model.Res Model.Prog Model.Reader Spec.Esri.
From SF Require Import Proofs.IndexReader.
Open Scope Z_scope.

(** Refinement: in every state satisfying the reader invariant (source
    position known to the reader or marked unknown, cursor within the index) —
    in particular in every state reached by any earlier history of calls — any
    further history of calls returns exactly what the abstract reader
    (shapes in index order, next position) returns, and re-establishes the
    invariant. *)
Theorem C15_history : forall (req : option shape_type) (data : bytes) (idx : list (Z * Z)) (recs : list (Z * ref_rec))
    (cs : list rcall) (st : rstate) (s : src) (k : nat),
  Indexed req data idx recs -> RInv data idx st s -> r_next st = Z.of_nat k -> Forall rcall_wf cs ->
  exists st' s', run (r_calls req st cs) s = (Ok (abs_calls (shapes_of recs) k cs, st'), s') /\ RInv data idx st' s'.
Proof. exact index_history. Qed.
Print Assumptions C15_history.

(** What the abstract reader returns, which by [C15_history] is what the
    library returns, says what the property says: *)

(** Random access returns record i whatever the position; the count never changes. *)
Theorem C15_nth_and_count_stable : forall (shapes : list shape) (k k' : nat) (i : Z),
  fst (abs_call shapes k (RNth i)) = fst (abs_call shapes k' (RNth i)) /\
  fst (abs_call shapes k RCount) = OCountR (Ok (zlen shapes)).
Proof. intros. split; [|reflexivity]. cbn [abs_call]. destruct (nth_error shapes (Z.to_nat i)); reflexivity. Qed.
Print Assumptions C15_nth_and_count_stable.

(** An iteration yields the records from the current position to the last one,
    in order, then ends; the position is 0 on a fresh reader and after a
    successful random access, min(k, n) after seek(k), and after an iteration
    it is where that iteration stopped (so a further iteration yields the
    records not yet consumed). *)
Theorem C15_iteration : forall (shapes : list shape) (k fuel : nat),
  (length shapes - k < fuel)%nat ->
  abs_call shapes k (RIter fuel) = (OItems (map Ok (skipn k shapes)) true, length shapes).
Proof.
  intros shapes k fuel H. cbn [abs_call]. unfold pull_spec. rewrite skipn_length.
  destruct (Nat.ltb_spec (length shapes - k) fuel); [reflexivity|lia].
Qed.

Theorem C15_partial_iteration : forall (shapes : list shape) (k fuel : nat),
  (fuel <= length shapes - k)%nat ->
  abs_call shapes k (RIter fuel) = (OItems (map Ok (firstn fuel (skipn k shapes))) false, (k + fuel)%nat).
Proof.
  intros shapes k fuel H. cbn [abs_call]. unfold pull_spec. rewrite skipn_length.
  destruct (Nat.ltb_spec (length shapes - k) fuel); [lia|reflexivity].
Qed.

Theorem C15_positions : forall (shapes : list shape) (k : nat) (i j : Z) (x : shape),
  nth_error shapes (Z.to_nat i) = Some x ->
  snd (abs_call shapes k (RNth i)) = O /\
  snd (abs_call shapes k (RSeek j)) = Nat.min (Z.to_nat j) (length shapes) /\
  snd (abs_call shapes k RCount) = k /\ snd (abs_call shapes k RHint) = k.
Proof. intros shapes k i j x H. cbn [abs_call]. rewrite H. auto. Qed.
Print Assumptions C15_positions.

(** Non-vacuity: see C14_example (a reader state built by opening a file) and
    the following instance of the abstract reader. *)
Example C15_example :
  let a := SPoint XY (mkpt 1 2 0 0) in let b := SPoint XY (mkpt 3 4 0 0) in let c := SPoint XY (mkpt 5 6 0 0) in
  abs_calls [a; b; c] 0 [RIter 1; RIter 9; RSeek 2; RIter 9; RNth 1; RIter 2; RIter 9; RHint]
  = [OItems [Ok a] false; OItems [Ok b; Ok c] true; OSeekR (Ok tt); OItems [Ok c] true; ONthR (Some (Ok b));
     OItems [Ok a; Ok b] false; OItems [Ok c] true; OHintR (Some 0)].
Proof. vm_compute. reflexivity. Qed.
