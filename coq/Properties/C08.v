(** C08 — Shapes and attribute rows stay paired one-to-one through write and
    read.  The theorems of the property, proved from the lemmas of
    Proofs/CompleteProofs.v, Proofs/IndexReader.v and Proofs/PathsProofs.v.

    The `dbase` crate is MODELLED, not verified (Model/Complete.v): an ordered
    row store whose writer appends exactly the rows it accepts and whose reader
    returns them from the current row position.  KNOWN FINDING F10
    (known_findings.json): `write_shape_and_record` writes the shape before the
    row, so a call whose row the table rejects leaves one more .shp record and
    .shx entry than .dbf rows ([C08_row_rejection_witness]); the theorems below
    are about histories outside that class (every row acceptable), where the
    only failing calls are shape-type mismatches. *)
From SF Require Import Model.Bytes Model.ShapeType Model.Shapes Model.Res Model.Writer Model.Prog
  Model.Reader Model.Complete Spec.Esri Spec.Denote.
From SF Require Import Proofs.ProgLemmas Proofs.WriterInv Proofs.IndexReader Proofs.CompleteProofs.
From SF Require Import Model.Paths Proofs.PathsProofs.
Open Scope Z_scope.

(** A call that fails because of its shape's type changes nothing anywhere:
    writer state, table, both destinations (premise: C10_reject). *)
Theorem C08_rejected_call : forall (st : cwstate) (w : world) (s : shape) (k : rowk) (id : Z) (e : err),
  w_write_shape (cw_shape st) w s = (Err e, cw_shape st, w) -> cw_write st w s k id = (Err e, st, w).
Proof. exact cw_rejected. Qed.
Print Assumptions C08_rejected_call.

(** Any history of calls with acceptable rows (shapes of any types: mismatch
    failures interleaved anywhere): every call returns Ok or the mismatch error;
    the table holds exactly the rows of the accepted calls, in order, and as
    many rows as the shape writer has accepted shapes — hence as many as the
    .shp has records and the .shx has entries (C02_emits_spec, C04_shx_layout). *)
Theorem C08_history : forall (cs : list (shape * rowk * Z)),
  Forall ccall_ok cs ->
  exists rs st' w', cw_calls cs cw_new world0 = (rs, st', w') /\
    WInv true (cw_shape st') w' (fst (cacc [] [] cs)) /\
    cw_rows st' = snd (cacc [] [] cs) /\
    zlen (cw_rows st') = zlen (fst (cacc [] [] cs)) /\
    Forall (fun r => r = Ok tt \/ exists a b, r = Err (EMismatch a b)) rs.
Proof.
  intros cs Hcs. destruct (cw_history cs cw_new world0 [] (WInv_init true) (Forall_nil _) Hcs) as (rs & st' & w' & E & Inv & R & F).
  exists rs, st', w'. split; [exact E|]. split; [exact Inv|]. split; [exact R|]. split; [|exact F].
  rewrite R. exact (cacc_zlen cs [] [] eq_refl).
Qed.
Print Assumptions C08_history.

(** Reading: with one row per record, an iteration started where shape cursor
    and row cursor agree (a fresh reader: 0; after seek(k): k) yields the pairs
    (shape i, row i) for i from that position on, in order, then ends. *)
Theorem C08_pairs : forall (req : option shape_type) (data : bytes) (idx : list (Z * Z)) (recs : list (Z * ref_rec))
    (rows : list Z) (fuel : nat) (st : crstate) (s : src) (k : nat),
  Indexed req data idx recs -> length rows = length recs ->
  RInv data idx (cr_shape st) s -> r_next (cr_shape st) = Z.of_nat k -> cr_row st = Z.of_nat k ->
  exists st' s',
    run (c_pull fuel req rows st) s
    = (Ok (fst (fst (pairs_spec (shapes_of recs) rows k fuel)), snd (fst (pairs_spec (shapes_of recs) rows k fuel)), st'), s') /\
    RInv data idx (cr_shape st') s' /\
    r_next (cr_shape st') = Z.of_nat (snd (pairs_spec (shapes_of recs) rows k fuel)) /\
    (snd (fst (pairs_spec (shapes_of recs) rows k fuel)) = false -> cr_row st' = Z.of_nat (snd (pairs_spec (shapes_of recs) rows k fuel))).
Proof.
  intros req data idx recs rows fuel. induction fuel as [|f IH]; intros st s k HI Hrows Hinv Hk Hrk.
  - rewrite pairs_spec_0. exists st, s. auto.
  - pose proof HI as [HF _]. pose proof (Forall2_zlen _ _ _ HF) as Hlen.
    cbn [c_pull]. rewrite run_bind. unfold c_next. rewrite run_bind.
    destruct (Z.ltb_spec (Z.of_nat k) (zlen idx)) as [Hlt|Hge].
    + destruct (it_next_index req data idx recs (cr_shape st) s (Z.of_nat k) HI Hinv Hk Hlt)
        as (nr & st1 & s1 & Hnr & Hrun & Hinv1 & Hn1 & Hh1).
      rewrite Hrun. cbn [fst snd]. rewrite Nat2Z.id in Hnr.
      assert (Hkr : (k < length rows)%nat) by (rewrite Hrows; apply nth_error_Some; congruence).
      destruct (nth_error rows k) as [id|] eqn:Eid; [|apply nth_error_None in Eid; lia].
      rewrite Hrk, (nth_row_some rows k id Eid). cbn [run fst snd]. rewrite run_bind.
      rewrite (pairs_spec_cons (shapes_of recs) rows k f _ id (map_nth_error (fun nr => denote (snd nr)) _ _ Hnr) Eid).
      destruct (IH (mkcr st1 (Z.of_nat k + 1)) s1 (S k) HI Hrows) as (st2 & s2 & Hrun2 & Hinv2 & Hn2 & Hr2);
        cbn [cr_shape cr_row]; try assumption; try lia.
      rewrite Hrun2. destruct (pairs_spec (shapes_of recs) rows (S k) f) as [[items ended] n]. cbn [run fst snd] in *.
      exists st2, s2. auto.
    + pose proof (ri_next _ _ _ _ Hinv) as Hb. rewrite Hk in Hb.
      rewrite (it_next_end req data idx (cr_shape st) s Hinv) by lia. cbn [fst snd run].
      rewrite pairs_spec_end by (unfold shapes_of; rewrite map_length; unfold zlen in *; lia).
      exists (mkcr (cr_shape st) (cr_row st)), s. cbn [fst snd cr_shape].
      split; [reflexivity|]. split; [exact Hinv|]. split; [|intros; discriminate].
      unfold shapes_of. rewrite Hk, map_length. unfold zlen in *. lia.
Qed.
Print Assumptions C08_pairs.

(** [pairs_spec] with fuel to spare: all the pairs from position k on, in
    order, and the iteration has ended. *)
Theorem C08_pairs_spec : forall (shapes : list shape) (rows : list Z) (k fuel : nat),
  (length (combine (skipn k shapes) (skipn k rows)) < fuel)%nat ->
  pairs_spec shapes rows k fuel = (map Ok (combine (skipn k shapes) (skipn k rows)), true, length shapes).
Proof. intros. unfold pairs_spec. destruct (Nat.ltb_spec (length (combine (skipn k shapes) (skipn k rows))) fuel); [reflexivity|lia]. Qed.

(** The known finding, as a witness: one call with a row the table rejects
    leaves a .shp record and a .shx entry without a .dbf row. *)
Example C08_row_rejection_witness :
  let p := SPoint XY (mkpt 1 2 0 0) in
  let '(rs, st, w) := cw_calls [(p, RowMissingField, 0)] cw_new world0 in
  rs = [Err EDbase] /\ cw_rows st = [] /\
  zlen (d_buf (w_shp (w_drop (cw_shape st) w))) = 128 /\ zlen (d_buf (w_shx (w_drop (cw_shape st) w))) = 108.
Proof. vm_compute. repeat split; reflexivity. Qed.

Example C08_example :
  let p := SPoint XY (mkpt 1 2 0 0) in let q := SPoint XYM (mkpt 1 2 0 3) in
  let cs := [(p, RowOk, 0); (q, RowOk, 1); (p, RowOk, 2)] in
  Forall ccall_ok cs /\ cacc [] [] cs = ([p; p], [0; 2]).
Proof. split; [repeat constructor; cbn; discriminate|reflexivity]. Qed.

(** By path (Model/Paths.v): `Writer::from_path(p)` creates p, p.with_extension("shx") and
    p.with_extension("dbf"); `Reader::from_path(p)` opens the same three.
    Two shapefiles in one directory under different names with the same
    extension share none of their files: each keeps its own index and its own
    table, so shapes of one are never paired with rows of the other. *)
Theorem C08_files_of_two_shapefiles_disjoint : forall (p q e e1 e2 : fname),
  extension p = Some e -> extension q = Some e -> p <> q ->
  In e1 [e; SHX; DBF] -> In e2 [e; SHX; DBF] -> with_ext p e1 <> with_ext q e2.
Proof.
  intros p q e e1 e2 Hp Hq Hne H1 H2.
  destruct (extension_spec p e Hp) as (_ & He & _).
  assert (D : forall x, In x [e; SHX; DBF] -> ~ In DOT x).
  { intros x [<-|[<-|[<-|[]]]]; [exact He|exact dotfree_SHX|exact dotfree_DBF]. }
  exact (siblings_disjoint p q e e1 e2 Hp Hq Hne (D e1 H1) (D e2 H2)).
Qed.
Print Assumptions C08_files_of_two_shapefiles_disjoint.

(** The three files of one shapefile are three different files (unless the
    name given for the .shp itself ends in ".shx" or ".dbf"), and they are the
    files any of them designates: the siblings of a sibling are the siblings. *)
Theorem C08_three_files : forall (p e : fname), extension p = Some e -> e <> SHX -> e <> DBF ->
  p <> with_ext p SHX /\ p <> with_ext p DBF /\ with_ext p SHX <> with_ext p DBF /\
  with_ext (with_ext p SHX) DBF = with_ext p DBF /\ with_ext (with_ext p DBF) SHX = with_ext p SHX.
Proof.
  intros p e Hp H1 H2. destruct (extension_spec p e Hp) as (Ep & He & _).
  assert (Np : p <> []) by (intros ->; discriminate Hp).
  split; [rewrite Ep at 1; apply siblings_distinct; exact H1|].
  split; [rewrite Ep at 1; apply siblings_distinct; exact H2|].
  split; [apply siblings_distinct; discriminate|].
  split; apply with_ext_with_ext; auto using dotfree_SHX, dotfree_DBF.
Qed.
Print Assumptions C08_three_files.

(** `Reader::from_path` without the table is refused, whatever else the directory holds. *)
Theorem C08_missing_dbf : forall (f : dir) (n : fname), fs_get f (with_ext n DBF) = None -> cr_open f n = CMissingDbf.
Proof. intros f n H. unfold cr_open. rewrite H. reflexivity. Qed.
Print Assumptions C08_missing_dbf.

(** After `Writer::from_path(n)` wrote its pairs, `Reader::from_path(n)` opens the writer's three files. *)
Theorem C08_open_after_write : forall (f : dir) (n e : fname) (w : world) (rows : list Z),
  extension n = Some e -> e <> SHX -> e <> DBF ->
  cr_open (cw_store f n w rows) n = COpen (d_buf (w_shp w)) (Some (d_buf (w_shx w))) rows.
Proof.
  intros f n e w rows Hn H1 H2. destruct (C08_three_files n e Hn H1 H2) as (A & B & C & _).
  unfold cr_open, cw_store. rewrite fs_get_set_same.
  rewrite (sr_open_frame (sw_store (sw_create f n) n w) _ n) by (apply fs_get_set_other; congruence).
  rewrite (open_after_write f n (fun H => A (eq_sym H)) w). reflexivity.
Qed.
Print Assumptions C08_open_after_write.
