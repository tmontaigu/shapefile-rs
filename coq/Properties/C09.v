(** C09 — Any interleaving of writes and finalize calls yields the same files
    as drop.  The theorems of the property, proved from the lemmas of
    Proofs/WriterInv.v and Proofs/BulkTail.v. *)
From SF Require Import Model.Bytes Model.Shapes Model.Res Model.Writer.
From SF Require Import Proofs.WriterInv Proofs.BulkTail.
Open Scope Z_scope.

(** For every history over {write s, finalize} (writes of any shapes of any
    types: rejected writes are part of the quantification), with or without an
    index destination, ending in drop or in finalize-then-drop, both files are
    byte-identical to those of the same writes followed by a plain drop. *)
Theorem C09_finalize_irrelevant : forall (hs : bool) (cs : list wcall) (e : wending),
  Forall call_ok cs ->
  files (snd (run_history hs world0 cs e)) = files (snd (run_history hs world0 (filter is_write cs) EDrop)).
Proof.
  intros hs cs e Hcs. rewrite (history_files hs cs e Hcs).
  rewrite (history_files hs _ EDrop (call_ok_filter cs Hcs)). rewrite accepted_acc_filter. reflexivity.
Qed.
Print Assumptions C09_finalize_irrelevant.

(** The files are a function of the accepted shapes alone. *)
Theorem C09_files : forall (hs : bool) (cs : list wcall) (e : wending),
  Forall call_ok cs ->
  files (snd (run_history hs world0 cs e))
  = (final_shp (accepted_acc [] cs), if hs then final_shx (accepted_acc [] cs) else []).
Proof. exact history_files. Qed.
Print Assumptions C09_files.

(** After any history, finalize succeeds and leaves both destinations flushed
    and holding the complete files of the shapes accepted so far. *)
Theorem C09_finalize_complete : forall (hs : bool) (cs : list wcall),
  Forall call_ok cs ->
  forall rs st w, run_calls cs (w_new hs) world0 = (rs, st, w) ->
  exists st' w', w_finalize st w = (Ok tt, st', w') /\ ws_dirty st' = false /\
    d_buf (w_shp w') = final_shp (accepted_acc [] cs) /\ d_flushed (w_shp w') = true /\
    (if hs then d_buf (w_shx w') = final_shx (accepted_acc [] cs) /\ d_flushed (w_shx w') = true
     else d_buf (w_shx w') = []).
Proof.
  intros hs cs Hcs rs st w E.
  destruct (run_calls_closed _ (WInv_closed hs) cs _ _ [] (WInv_init hs) (Forall_nil _) Hcs) as (st0 & w0 & E0 & Inv & _).
  rewrite E in E0. injection E0 as _ <- <-.
  destruct (finalize_step hs st w _ Inv) as (st1 & w1 & E1 & Inv1 & Hd).
  exists st1, w1. split; [exact E1|]. split; [exact Hd|]. exact (clean_files hs st1 w1 _ Inv1 Hd).
Qed.
Print Assumptions C09_finalize_complete.

(** finalize with nothing new to commit issues no operation at all (the
    world, operation logs included, is returned unchanged). *)
Theorem C09_clean_finalize_silent : forall (st : wstate) (w : world),
  ws_dirty st = false -> w_finalize st w = (Ok tt, st, w).
Proof. exact finalize_clean_silent. Qed.
Print Assumptions C09_clean_finalize_silent.

(** Non-vacuity: finalize first, two points, finalize in between. *)
Example C09_example :
  let p := SPoint XY (mkpt 1 2 0 0) in
  let cs := [CFinalize; CWrite p; CFinalize; CWrite p] in
  Forall call_ok cs /\
  zlen (fst (files (snd (run_history true world0 cs EDrop)))) = 156 /\
  files (snd (run_history true world0 cs EDrop)) = files (snd (run_history true world0 [CWrite p; CWrite p] EDrop)).
Proof. cbv zeta. split; [repeat constructor; discriminate|]. split; vm_compute; reflexivity. Qed.

(** Histories ended by the bulk helper `write_shapes(self, tail)`
    (Proofs/BulkTail.v).  When every write of the tail succeeds, the files are
    those of the same history with the tail written shape by shape and the
    writer dropped — to which the theorems above apply. *)
Theorem C09_bulk_ending : forall (hs : bool) (w0 : world) (cs : list wcall) (tail : list shape),
  (let '(rs, _, _) := run_calls (cs ++ map CWrite tail) (w_new hs) w0 in
   Forall (fun r => r = Ok tt) (skipn (length cs) rs)) ->
  snd (run_history_bulk hs w0 cs tail) = snd (run_history hs w0 (cs ++ map CWrite tail) EDrop).
Proof.
  intros hs w0 cs tail. unfold run_history_bulk, run_history. rewrite run_calls_app.
  pose proof (run_calls_length cs (w_new hs) w0) as Hl. destruct (run_calls cs (w_new hs) w0) as [[rs st1] w1]. cbn [fst] in Hl.
  revert st1 w1. induction tail as [|s r IH]; intros st1 w1; cbn [map run_calls write_shapes_calls]; [reflexivity|].
  destruct (w_write_shape st1 w1 s) as [[res st'] w']. specialize (IH st' w').
  destruct (run_calls (map CWrite r) st' w') as [[rs2 st2] w2].
  (* the first [length cs] results are those of [cs] *)
  rewrite <- Hl, skipn_app, skipn_all, Nat.sub_diag in *. cbn [app skipn] in *. intros Hall. inversion Hall as [|? ? Hr Hrest]; subst.
  destruct (write_shapes_calls r st' w') as [[r' st''] w'']. exact (IH Hrest).
Qed.
Print Assumptions C09_bulk_ending.
