(** C07 — Reading arbitrary bytes never panics, overflows or runs forever.
    The theorems of the property, proved from the lemmas of Proofs/NoPanic.v,
    Proofs/DecodeClosed.v, Proofs/ReaderRobust.v.

    The model carries the machine arithmetic of the reader: `as` casts wrap,
    arithmetic that panics in a build with overflow checks yields the outcome
    Panic ([usize_add], the validated counts and offsets of Decode.v).  So
    "the model never yields Panic" is a statement about the validation the
    code performs. *)
From SF Require Import Model.Bytes Model.ShapeType Model.Res Model.Encode Model.Prog Model.Decode Model.Reader.
From SF Require Import Proofs.ProgLemmas Proofs.NoPanic Proofs.DecodeClosed Proofs.ReaderSteps
  Proofs.ReaderRobust.
Open Scope Z_scope.

(** Opening: for any source (any bytes, any position, any injected fault)
    neither parsing the index nor opening the reader panics; a reader opened
    on bytes satisfies the bounds [RB] (declared length and index offsets are
    32-bit values, position counter in range). *)
Theorem C07_open : forall (s : src) (index : option (list (Z * Z))),
  all_bytes (s_data s) ->
  match index with Some idx => Forall (fun e => in_i32 (fst e)) idx | None => True end ->
  let p := match index with Some idx => r_with_shx idx | None => r_new end in
  fst (run p s) <> Panic /\ forall st s', run p s = (Ok st, s') -> RB st /\ r_index st = index.
Proof.
  intros s index Hb Hi p. split.
  - apply np_run. subst p. destruct index; unfold r_with_shx, r_new; (apply np_bind; [apply np_read_header|intros; constructor]).
  - intros st s' H. subst p.
    assert (exists h, run read_header s = (Ok h, s') /\ st = mkr h index 100 0) as (h & Hh & ->).
    { destruct index; unfold r_with_shx, r_new in H; rewrite run_bind in H;
        destruct (run read_header s) as [[h|e|] s1]; try discriminate; cbn [run] in H; injection H as <- <-; eauto. }
    split; [|reflexivity]. unfold RB. cbn [r_hdr r_index r_cur r_next].
    split; [eapply read_header_len; eassumption|]. split; [exact Hi|]. split; [left; unfold two63; lia|lia].
Qed.
Print Assumptions C07_open.

Theorem C07_index_parse : forall (s : src),
  fst (run read_index_file s) <> Panic /\
  (all_bytes (s_data s) -> forall idx s', run read_index_file s = (Ok idx, s') -> Forall (fun e => in_i32 (fst e)) idx).
Proof.
  intros s. split; [apply np_run, np_read_index_file|]. intros Hb idx s' H.
  unfold read_index_file in H. stepn H h sa Ea.
  assert (Hb1 : all_bytes (s_data sa)) by (rewrite (run_data _ _ _ _ Ea); exact Hb).
  cbv zeta in H. rewrite run_bind in H. cbn [reserve run] in H.
  destruct (index_entries_declared (h_len h)) as [|n|n]; cbn [rep_Z] in H; try (injection H as <- _; constructor).
  rewrite rep_pos_nat in H. eapply (rep_nat_forall (fun e => in_i32 (fst e))); [| |exact H]; [|exact Hb1].
  intros s2 a s3 Hb3 Hr. stepn Hr off sb Eb. stepn Hr w sc Ec. cbn [run] in Hr. injection Hr as <- _.
  exact (read_i32_be_range _ _ _ Hb3 Eb).
Qed.
Print Assumptions C07_index_parse.

(** Every history of reader calls — iterate, random access, seek, count, size
    hint, in any order — on any source of less than 2^63 bytes in any state
    (any position, any fault plan) runs to completion: every call returns a
    value (items carry their own errors), never a panic, and the bounds hold
    again afterwards. *)
Theorem C07_no_panic : forall (req : option shape_type) (cs : list rcall) (st : rstate) (s : src),
  RB st -> zlen (s_data s) < two63 -> Forall rcall_nonneg cs ->
  exists outs st' s', run (r_calls req st cs) s = (Ok (outs, st'), s') /\ RB st' /\ length outs = length cs.
Proof.
  intros req. induction cs as [|c cs IH]; intros st s HB Hd Hwf; cbn [r_calls].
  - cbn [run]. exists [], st, s. auto.
  - inversion Hwf as [|? ? Hc Hcs]; subst. rewrite run_bind.
    assert (exists o st1 s1, run (r_call req st c) s = (Ok (o, st1), s1) /\ RB st1) as (o & st1 & s1 & Hrun & HB1).
    { destruct c as [fuel|i|k| |]; cbn [r_call rcall_nonneg] in *.
      - destruct (it_pull_total req fuel st s HB) as (items & ended & st1 & s1 & Hrun & HB1 & _).
        rewrite run_bind, Hrun. cbn [run fst snd]. eauto.
      - destruct (r_read_nth_total req st s i HB Hd Hc) as (o & st1 & s1 & Hrun & (HB1 & _) & _).
        rewrite run_bind, Hrun. cbn [run fst snd]. eauto.
      - destruct (r_seek_total st s k HB Hd Hc) as (r & st1 & s1 & Hrun & (HB1 & _) & _).
        rewrite run_bind, Hrun. cbn [run fst snd]. eauto.
      - cbn [run]. eauto.
      - cbn [run]. eauto. }
    rewrite Hrun. cbn [fst snd]. rewrite run_bind.
    assert (Hd1 : zlen (s_data s1) < two63) by (rewrite (run_data _ _ _ _ Hrun); exact Hd).
    destruct (IH st1 s1 HB1 Hd1 Hcs) as (outs & st2 & s2 & Hrun2 & HB2 & Hlen).
    rewrite Hrun2. cbn [run fst snd]. exists (o :: outs), st2, s2. split; [reflexivity|]. split; [exact HB2|].
    cbn [length]. rewrite Hlen. reflexivity.
Qed.
Print Assumptions C07_no_panic.

(** Decoding one record of arbitrary bytes, generic or typed, never panics. *)
Theorem C07_record : forall (req : option shape_type) (s : src), fst (run (read_one_shape req) s) <> Panic.
Proof. intros req s. apply np_run, np_read_one_shape. Qed.
Print Assumptions C07_record.

(** Iterations end.  With an index: at most one item per remaining index entry
    (each entry costs 8 bytes of .shx).  Without index, on a fault-free source:
    at most (bytes left)/12 + 1 items (each shape consumed at least 12 bytes
    that exist; an error ends the iteration). *)
Theorem C07_bounded_index : forall (req : option shape_type) (idx : list (Z * Z)) (fuel : nat) (st : rstate) (s : src),
  RB st -> r_index st = Some idx -> (Z.to_nat (zlen idx - r_next st) < fuel)%nat ->
  exists items st' s', run (it_pull fuel req st) s = (Ok (items, true, st'), s') /\
                       (length items <= Z.to_nat (zlen idx - r_next st))%nat.
Proof.
  intros req idx. induction fuel as [|f IH]; intros st s HB Hidx Hf; [lia|]. cbn [it_pull]. rewrite run_bind.
  destruct (it_next_total req st s HB) as (o & st1 & s1 & Hrun & (HB1 & Hi1 & _) & Hcase). rewrite Hrun. cbn [fst snd].
  rewrite Hidx in Hcase. destruct o as [item|].
  - destruct Hcase as [Hn1 Hlt].
    destruct (IH st1 s1 HB1) as (items & st2 & s2 & Hrun2 & Hlen); [congruence|lia|].
    rewrite run_bind, Hrun2. cbn [run fst snd]. exists (item :: items), st2, s2. split; [reflexivity|]. cbn [length]. lia.
  - cbn [run]. exists [], st1, s1. split; [reflexivity|]. cbn [length]. lia.
Qed.
Print Assumptions C07_bounded_index.

Theorem C07_bounded_noindex : forall (req : option shape_type) (k : nat) (st : rstate) (s : src),
  RB st -> r_index st = None -> s_fault s = None -> 0 <= s_pos s <= zlen (s_data s) ->
  zlen (s_data s) - s_pos s < 12 * Z.of_nat k ->
  exists items st' s', run (it_pull (S k) req st) s = (Ok (items, true, st'), s') /\ (length items <= k)%nat.
Proof.
  intros req. induction k as [|k IH]; intros st s HB Hidx Hf Hp Hrem; [lia|].
  rewrite it_pull_S, run_bind.
  destruct (it_next_total req st s HB) as (o & st1 & s1 & Hrun & (HB1 & Hi1 & Hh1) & Hcase). rewrite Hrun. cbn [fst snd].
  rewrite Hidx in Hcase. destruct o as [[x|e|]|]; [| |contradiction|].
  - (* a shape: at least 12 bytes consumed *)
    destruct Hcase as (hdr & Hraw).
    destruct (read_one_shape_consumes req s hdr x s1 (conj Hf (proj1 Hp)) Hraw) as ((C2 & _) & C3 & C1).
    destruct k as [|k'].
    + exfalso. lia.
    + destruct (IH st1 s1 HB1) as (items & st2 & s2 & Hrun2 & Hlen); [congruence|exact C2|rewrite C3; lia|rewrite C3; lia|].
      rewrite run_bind, Hrun2. cbn [run fst snd]. exists (Ok x :: items), st2, s2. split; [reflexivity|]. cbn [length]. lia.
  - (* an error: the next step ends the iteration *)
    rewrite run_bind, it_pull_end; [|congruence|unfold flen_bytes in *; rewrite Hh1; lia].
    exists [Err e], st1, s1. split; [reflexivity|]. cbn [length]. lia.
  - cbn [run]. exists [], st1, s1. split; [reflexivity|]. cbn [length]. lia.
Qed.
Print Assumptions C07_bounded_noindex.

(** Non-vacuity: a header declaring 2^31-1 words followed by a record header
    declaring i32::MAX content words, and an index entry with offset i32::MIN. *)
Definition ex_garbage : bytes :=
  i32_be 9994 ++ repeat_Z 0 20 ++ i32_be 2147483647 ++ i32_le 1000 ++ i32_le 5 ++ repeat_Z 0 64
  ++ i32_be 1 ++ i32_be 2147483647 ++ i32_le 5 ++ repeat_Z 255 40.
Example C07_example :
  fst (run (st <-- r_with_shx [(-2147483648, 7); (50, 2147483647)] ;; x <-- r_calls None st [RIter 5; RNth 1; RSeek 9; RIter 5] ;; Ret (fst x))
           (src_of ex_garbage))
  = Ok [OItems [Err EIoInvalidData; Err EInvalidRecordSize] true; ONthR (Some (Err EInvalidRecordSize)); OSeekR (Ok tt);
        OItems [] true].
Proof. vm_compute. reflexivity. Qed.
