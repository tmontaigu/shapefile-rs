(** C12 — Destination I/O failures surface from the failing call; finalize is
    retryable.  The theorems of the property, proved from the lemmas of
    Proofs/WriterFaults.v, Proofs/WriterTotal.v and Proofs/WriterRecover.v. *)
From SF Require Import Model.Bytes Model.ShapeType Model.Shapes Model.Res Model.Writer.
From SF Require Import Proofs.WriterCore Proofs.WriterInv Proofs.WriterFaults Proofs.WriterRecover
  Proofs.WriterTotal.
Open Scope Z_scope.

(** Every writer call is a straight-line list of destination operations with
    `?` after each.  Run on destinations with ANY fault plan (the k-th write,
    seek or flush of either file, one-shot or persistent) such a list applies
    exactly a prefix [pre] of its operations to the buffers; the call returns
    Ok exactly when nothing remained ([post] = []) and otherwise the injected
    error of the first operation that failed — from this very call, never a
    panic, never a success. *)
Theorem C12_fault_surfaces : forall (ops : list (dest * wop)) (w : world),
  world_pos_ok w -> Forall (fun o => op_wf (snd o)) ops ->
  exists pre post r w', ops = pre ++ post /\ run_ops ops w = (r, w') /\ world_pos_ok w' /\
    bp_of (w_shp w') = bp_ops (ops_of Shp pre) (bp_of (w_shp w)) /\
    bp_of (w_shx w') = bp_ops (ops_of Shx pre) (bp_of (w_shx w)) /\
    ((r = Ok tt /\ post = []) \/ (r = Err EIoInjected /\ post <> [])).
Proof. exact run_ops_prefix. Qed.
Print Assumptions C12_fault_surfaces.

(** At the level of calls: in ANY writer state and ANY world (any fault plan
    armed on either destination), every call of every history returns Ok, the
    type-mismatch error or the injected I/O error — never a panic. *)
Theorem C12_calls_never_panic : forall (cs : list wcall) (st : wstate) (w : world), world_pos_ok w ->
  Forall good_result (fst (fst (run_calls cs st w))) /\ world_pos_ok (snd (run_calls cs st w)).
Proof.
  induction cs as [|c cs IH]; intros st w Hw; [split; [constructor|exact Hw]|]. cbn [run_calls].
  assert (G : let x := match c with CWrite s => w_write_shape st w s | CFinalize => w_finalize st w | CHeal => (Ok tt, st, heal w) end in
              good_result (fst (fst x)) /\ world_pos_ok (snd x)).
  { destruct c; [apply write_shape_outcome, Hw|apply finalize_outcome, Hw|]. split; [left; reflexivity|exact Hw]. }
  destruct (match c with CWrite s => w_write_shape st w s | CFinalize => w_finalize st w | CHeal => (Ok tt, st, heal w) end)
    as [[r st1] w1]. destruct G as [G Hw1]. cbn [fst snd] in G, Hw1.
  destruct (IH st1 w1 Hw1) as [G2 Hw2]. destruct (run_calls cs st1 w1) as [[rs st2] w2]. cbn [fst snd] in *.
  split; [constructor; assumption|exact Hw2].
Qed.
Print Assumptions C12_calls_never_panic.

(** In particular for a history started on fresh destinations with a fault
    armed at the k-th operation of either of them, one-shot or persistent,
    ended by drop or finalize + drop. *)
Theorem C12_history_never_panics : forall (hs : bool) (t : dest) (k : nat) (persistent : bool) (cs : list wcall) (e : wending),
  Forall good_result (fst (run_history hs (world_with_fault t k persistent) cs e)).
Proof.
  intros hs t k persistent cs e.
  assert (Hw0 : world_pos_ok (world_with_fault t k persistent)) by (unfold world_pos_ok, dev_pos_ok, world_with_fault, wdev_empty; destruct t; cbn; lia).
  unfold run_history. destruct (C12_calls_never_panic cs (w_new hs) _ Hw0) as [G Hw].
  destruct (run_calls cs (w_new hs) (world_with_fault t k persistent)) as [[rs st] w]. cbn [fst snd] in *.
  destruct e; [exact G|].
  destruct (finalize_outcome st w Hw) as [G1 _]. destruct (w_finalize st w) as [[r st1] w1]. cbn [fst snd] in *.
  apply Forall_app. split; [exact G|constructor; [exact G1|constructor]].
Qed.
Print Assumptions C12_history_never_panics.

(** finalize on destinations with any fault plan, in any state whose record
    regions are intact ([WBuf]: what every history of calls, failed ones
    included, maintains): either it succeeds and both files are complete, or
    it returns the injected error, the writer stays dirty and unchanged but
    for the `finalize_interrupted` mark, and the record regions stay intact. *)
Theorem C12_finalize_any : forall (hs : bool) (st : wstate) (w : world) (ss : list shape),
  WBuf hs st w ss -> ws_dirty st = true ->
  exists r st1 w1, w_finalize st w = (r, st1, w1) /\
    ((r = Ok tt /\ ws_dirty st1 = false /\ d_buf (w_shp w1) = final_shp ss /\
      d_buf (w_shx w1) = (if hs then final_shx ss else [])) \/
     (r = Err EIoInjected /\ st1 = set_interrupted st true /\ WBuf hs st1 w1 ss)).
Proof. exact finalize_any. Qed.
Print Assumptions C12_finalize_any.

(** A finalize that failed can be called again and, once the destinations
    work, completes both files exactly as an undisturbed run would
    ([final_shp] / [final_shx] of the accepted shapes: C09_files). *)
Theorem C12_retry : forall (hs : bool) (st : wstate) (w : world) (ss : list shape),
  WBuf hs st w ss -> ws_dirty st = true ->
  forall st1 w1, w_finalize st w = (Err EIoInjected, st1, w1) ->
  exists st2 w2, w_finalize st1 (heal w1) = (Ok tt, st2, w2) /\ ws_dirty st2 = false /\
    d_buf (w_shp w2) = final_shp ss /\ d_buf (w_shx w2) = (if hs then final_shx ss else []).
Proof.
  intros hs st w ss Hb Hd st1 w1 E. destruct (failed_finalize_ready hs st w ss Hb Hd st1 w1 E) as [Rd Hd1].
  destruct (finalize_ready hs st1 (heal w1) ss Rd Hd1) as (st2 & w2 & E2 & Inv2 & Hd2).
  exists st2, w2. split; [exact E2|]. split; [exact Hd2|].
  destruct (clean_files hs st2 w2 ss Inv2 Hd2) as (H1 & _ & H3). split; [exact H1|]. destruct hs; [apply H3|exact H3].
Qed.
Print Assumptions C12_retry.

(** More than the retry: after a finalize that failed — at any operation of
    either destination — and once the destinations work, EVERY continuation of
    calls (more writes, accepted or rejected, finalizes anywhere) returns what
    it returns in the undisturbed run ([expected_results]), and dropping the
    writer leaves exactly the files of the undisturbed history.  (Found false
    on the pinned tree: the first write after the failed finalize landed
    inside the header; repaired by 276a00f.) *)
Theorem C12_failed_finalize_harmless : forall (hs : bool) (st : wstate) (w : world) (ss : list shape),
  WBuf hs st w ss -> ws_dirty st = true -> Forall (fun x => type_of x <> TNull) ss ->
  forall st1 w1, w_finalize st w = (Err EIoInjected, st1, w1) ->
  forall cs, Forall call_ok cs ->
  exists st2 w2, run_calls cs st1 (heal w1) = (expected_results ss cs, st2, w2) /\
    files (w_drop st2 w2) = (final_shp (accepted_acc ss cs), if hs then final_shx (accepted_acc ss cs) else []).
Proof.
  intros hs st w ss Hb Hd Hss st1 w1 E cs Hcs. destruct (failed_finalize_ready hs st w ss Hb Hd st1 w1 E) as [Rd Hd1].
  assert (L : Live hs st1 (heal w1) ss) by (split; [exact Rd|rewrite Hd1; discriminate]).
  destruct (run_calls_closed _ (Live_closed hs) cs st1 (heal w1) ss L Hss Hcs) as (st2 & w2 & E2 & L2 & _).
  exists st2, w2. split; [exact E2|]. unfold w_drop.
  destruct (finalize_live hs st2 w2 _ L2) as (st3 & w3 & E3 & Inv3 & Hd3). rewrite E3. cbn [snd].
  destruct (clean_files hs st3 w3 _ Inv3 Hd3) as (H1 & _ & H3). unfold files. rewrite H1.
  destruct hs; [destruct H3 as [-> _]|rewrite H3]; reflexivity.
Qed.
Print Assumptions C12_failed_finalize_harmless.

(** Every state reached by a fault-free history satisfies [WBuf], whatever
    fault plan is armed on either destination afterwards. *)
Theorem C12_reachable : forall (hs : bool) (st : wstate) (w : world) (ss : list shape) (f1 f2 : option (nat * bool)),
  WInv hs st w ss -> WBuf hs st (arm w f1 f2) ss.
Proof. intros hs st w ss f1 f2 H. apply arm_WBuf, WInv_WBuf, H. Qed.
Print Assumptions C12_reachable.

(** Dropping a writer whose destination is failing returns normally: `Drop`
    discards the result of finalize ([w_drop] is total, and by
    C12_fault_surfaces that result is never a panic). *)
Theorem C12_drop : forall (st : wstate) (w : world), w_drop st w = snd (w_finalize st w).
Proof. reflexivity. Qed.

(** Short writes: std's `write_all` loop over a destination that accepts at
    most c_i >= 1 bytes per `write` call delivers exactly the bytes, for every
    schedule. *)
Theorem C12_chunking : forall (fuel : nat) (bs : bytes) (sched : list nat), (length bs <= fuel)%nat ->
  exists pieces, write_all_loop fuel bs sched = Some pieces /\ concat pieces = bs.
Proof.
  induction fuel as [|fuel IH]; intros bs sched Hl.
  - destruct bs; [exists []; split; reflexivity|cbn in Hl; lia].
  - destruct bs as [|b bs']; [exists []; split; reflexivity|].
    cbn [write_all_loop]. set (l := b :: bs') in *.
    set (c := match sched with [] => length l | c0 :: _ => Nat.min (Nat.max c0 1) (length l) end).
    assert (Hc : (1 <= c <= length l)%nat) by (unfold c, l; cbn [length]; destruct sched; lia).
    destruct (IH (skipn c l) (tl sched)) as (pieces & E & Hcat); [rewrite skipn_length; lia|].
    rewrite E. exists (firstn c l :: pieces). split; [reflexivity|]. cbn [concat]. rewrite Hcat. apply firstn_skipn.
Qed.
Print Assumptions C12_chunking.

(** Non-vacuity: the 7th operation on the .shp (inside the header rewrite of
    finalize) fails once; finalize reports it; after healing, finalize
    completes the file. *)
Example C12_example :
  let p := SPoint XY (mkpt 1 2 0 0) in
  let w0 := world_with_fault Shp 23 false in
  fst (run_history false w0 [CWrite p; CFinalize; CHeal; CFinalize] EDrop)
    = [Ok tt; Err EIoInjected; Ok tt; Ok tt] /\
  files (snd (run_history false w0 [CWrite p; CFinalize; CHeal; CFinalize] EDrop))
    = files (snd (run_history false world0 [CWrite p] EDrop)).
Proof. split; vm_compute; reflexivity. Qed.

(** ...and the same with a write between the failed finalize and the next one. *)
Example C12_example_write_after_failed_finalize :
  let p := SPoint XY (mkpt 1 2 0 0) in
  let q := SPoint XY (mkpt 3 4 0 0) in
  let w0 := world_with_fault Shp 23 false in
  fst (run_history true w0 [CWrite p; CFinalize; CHeal; CWrite q; CFinalize] EDrop)
    = [Ok tt; Err EIoInjected; Ok tt; Ok tt; Ok tt] /\
  files (snd (run_history true w0 [CWrite p; CFinalize; CHeal; CWrite q; CFinalize] EDrop))
    = files (snd (run_history true world0 [CWrite p; CWrite q] EDrop)).
Proof. split; vm_compute; reflexivity. Qed.
