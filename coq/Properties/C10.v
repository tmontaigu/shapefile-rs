(** C10 — A writer holds one shape type; a rejected write changes nothing.
    The theorems of the property, proved from the lemmas of Proofs/WriterInv.v
    and Proofs/BulkTail.v. *)
From SF Require Import Model.Bytes Model.ShapeType Model.Shapes Model.Res Model.Encode Model.Writer.
From SF Require Import Proofs.WriterInv Proofs.BulkTail.
From SF Require Import Model.Complete Proofs.CompleteBulk.
Open Scope Z_scope.

(** In every reachable state of a writer that has accepted a first shape, a
    write of another type returns the mismatch error naming the file's type
    and the offered type; the writer state and both destinations (buffers,
    positions, operation counters and logs: no operation is issued) are
    returned unchanged. *)
Theorem C10_reject : forall (hs : bool) (cs : list wcall) (s : shape),
  Forall call_ok cs -> type_of s <> TNull ->
  forall rs st w, run_calls cs (w_new hs) world0 = (rs, st, w) ->
  accepts_type (accepted_acc [] cs) s = false ->
  exists t, h_type (ws_hdr st) = t /\ t <> TNull /\
    w_write_shape st w s = (Err (EMismatch t (type_of s)), st, w).
Proof.
  intros hs cs s Hcs Hs rs st w E Ha.
  destruct (run_calls_closed _ (WInv_closed hs) cs _ _ [] (WInv_init hs) (Forall_nil _) Hcs) as (st0 & w0 & E0 & Inv & Hnn).
  rewrite E in E0. injection E0 as _ <- <-.
  destruct (accepted_acc [] cs) as [|s0 ss']; [discriminate|]. cbn [accepts_type] in Ha.
  exists (type_of s0). split; [rewrite (inv_hdr _ _ _ _ Inv), hdr_after_type; reflexivity|]. split; [exact (Forall_inv Hnn)|].
  exact (write_rejected st w ss' s0 s (inv_hdr _ _ _ _ Inv) (Forall_inv Hnn) Ha).
Qed.
Print Assumptions C10_reject.

(** Hence the final files are those of the history with the rejected calls
    removed. *)
Theorem C10_erase : forall (hs : bool) (cs : list wcall) (e : wending),
  Forall call_ok cs ->
  files (snd (run_history hs world0 cs e)) = files (snd (run_history hs world0 (remove_rejected [] cs) e)).
Proof.
  intros hs cs e Hcs. rewrite (history_files hs cs e Hcs).
  rewrite (history_files hs _ e (call_ok_remove [] cs Hcs)). rewrite accepted_acc_remove. reflexivity.
Qed.
Print Assumptions C10_erase.

Example C10_example :
  let p := SPoint XY (mkpt 1 2 0 0) in
  let q := SPoint XYM (mkpt 1 2 0 3) in
  fst (run_history false world0 [CWrite p; CWrite q; CWrite p] EDrop)
    = [Ok tt; Err (EMismatch TPoint TPointM); Ok tt]
  /\ remove_rejected [] [CWrite p; CWrite q; CWrite p] = [CWrite p; CWrite p].
Proof. split; vm_compute; reflexivity. Qed.

(** The bulk helper `write_shapes(self, tail)` (Proofs/BulkTail.v) is the
    single calls `write_shape` on the shapes of the tail, in order, up to and
    including the first that fails: it returns that call's result, and leaves
    the writer and the destinations as those calls leave them.  A tail of
    another type than the file's is therefore refused at its first shape by
    [C10_reject], with nothing written. *)
Theorem C10_bulk_is_calls : forall (ss : list shape) (st : wstate) (w : world),
  let '(rs, st1, w1) := run_calls (map CWrite (firstn (bulk_offered ss st w) ss)) st w in
  write_shapes_calls ss st w = (last rs (Ok tt), st1, w1) /\
  length rs = bulk_offered ss st w /\
  Forall (fun r => r = Ok tt) (removelast rs) /\
  ((bulk_offered ss st w < length ss)%nat -> last rs (Ok tt) <> Ok tt).
Proof.
  exact (bulk_is_calls_gen _ _ _ (fun st w s => w_write_shape st w s) (fun xs => run_calls (map CWrite xs)) write_shapes_calls bulk_offered
           (fun _ _ => eq_refl) (fun _ _ _ _ => eq_refl) (fun _ _ => eq_refl) (fun _ _ _ _ => eq_refl) (fun _ _ => eq_refl)
           (fun _ _ _ _ => eq_refl)).
Qed.
Print Assumptions C10_bulk_is_calls.

(** The complete writer's bulk helper `write_shapes_and_records` likewise
    (Proofs/CompleteBulk.v): the single calls up to and including the first that
    fails - a pair whose shape is of another type is refused there, and by
    [C08_rejected_call] its row is not written. *)
Theorem C10_complete_bulk_is_calls : forall (cs : list (shape * rowk * Z)) (st : cwstate) (w : world),
  let '(rs, st1, w1) := cw_calls (firstn (cbulk_offered cs st w) cs) st w in
  cw_bulk cs st w = (last rs (Ok tt), st1, w1) /\
  length rs = cbulk_offered cs st w /\
  Forall (fun r => r = Ok tt) (removelast rs) /\
  ((cbulk_offered cs st w < length cs)%nat -> last rs (Ok tt) <> Ok tt).
Proof.
  exact (bulk_is_calls_gen _ _ _ (fun st w (c : shape * rowk * Z) => let '(s, k, id) := c in cw_write st w s k id)
           cw_calls cw_bulk cbulk_offered
           (fun _ _ => eq_refl) (fun '(s, k, id) _ _ _ => eq_refl) (fun _ _ => eq_refl) (fun '(s, k, id) _ _ _ => eq_refl)
           (fun _ _ => eq_refl) (fun '(s, k, id) _ _ _ => eq_refl)).
Qed.
Print Assumptions C10_complete_bulk_is_calls.
