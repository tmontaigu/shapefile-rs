(** C17 — Memory requested while reading is proportional to the input size.
    The theorems of the property, proved from the lemmas of Proofs/Reserve.v,
    Proofs/DecodeClosed.v, Proofs/ReserveReader.v.

    The reading programs of the model record every pre-sizing request of the
    code (`Vec::with_capacity(n)`, `vec![x; n]`) in a ledger, in bytes
    ([Reserve], Model/Prog.v).  PARTIAL: the theorem bounds every such request
    by a constant whatever counts and lengths the input declares; that vectors
    otherwise grow only with data actually read (so that the peak is at most a
    fixed multiple of the input) relies on `Vec`'s growth policy and on the
    allocator, which are measured on the implementation by a counting
    allocator, not modelled. *)
From SF Require Import Model.Bytes Model.ShapeType Model.Prog Model.Decode Model.Reader.
From SF Require Import Proofs.Reserve Proofs.DecodeClosed Proofs.ReserveReader.
Open Scope Z_scope.

(** For ANY source (any bytes, any declared counts, lengths and offsets, any
    fault plan), opening a reader with or without an index and running any
    history of calls: every pre-sizing request is at most 32 KiB (1024 elements
    of at most 32 bytes). *)
Theorem C17_requests : forall (req : option shape_type) (index : option (list (Z * Z))) (cs : list rcall) (s : src),
  ledger_ok s ->
  ledger_ok (snd (run (st <-- (match index with Some idx => r_with_shx idx | None => r_new end) ;; r_calls req st cs) s)).
Proof.
  intros req index cs s Hs. apply rb_run; [|exact Hs]. apply rb_bind; [|intros st; apply rb_r_calls].
  destruct index; unfold r_with_shx, r_new; (apply rb_bind; [apply rb_read_header|intros; constructor]).
Qed.
Print Assumptions C17_requests.

(** The same for parsing the index file, whatever length its header declares. *)
Theorem C17_index_requests : forall (s : src), ledger_ok s -> ledger_ok (snd (run read_index_file s)).
Proof. intros s. apply rb_run, rb_read_index_file. Qed.
Print Assumptions C17_index_requests.

(** And for decoding one record. *)
Theorem C17_record_requests : forall (req : option shape_type) (s : src),
  ledger_ok s -> ledger_ok (snd (run (read_one_shape req) s)).
Proof. intros req s. apply rb_run, rb_read_one_shape. Qed.
Print Assumptions C17_record_requests.

(** Non-vacuity: 60 bytes declaring 2^30 parts and 2^30 points. *)
Example C17_example :
  let bytes := i32_be 1 ++ i32_be 1073741800 ++ i32_le 3 ++ repeat_Z 0 32 ++ i32_le 1073741824 ++ i32_le 1073741824 ++ repeat_Z 0 8 in
  s_reserved (snd (run (read_one_shape None) (src_of bytes))) = [4096] /\ ledger_ok (src_of bytes).
Proof. split; [vm_compute; reflexivity|constructor]. Qed.
