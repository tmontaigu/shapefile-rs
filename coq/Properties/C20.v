(** C20 — geo-types conversions preserve coordinates, order and ring nesting.
    The theorems of the property, proved from the lemmas of Proofs/GeoProofs.v
    and Proofs/GeoPolygonBack.v.  geo-types / geo-traits are
    MODELLED (Model/Geo.v), not verified.  PARTIAL: the polygon clauses proved
    here are the grouping of rings into exterior + holes in the shape -> geometry
    direction; "converting a polygon back yields the original" and the
    geometry -> shape -> geometry direction for polygons (equal up to ring
    orientation) are decided by the correspondence check and its oracle only.
    KNOWN FINDING F12: a line string with exactly one coordinate makes
    `From<LineString>` panic (Polyline::new asserts at least two points). *)
From SF Require Import Model.Bytes Model.F64 Model.Shapes Model.Res Model.F64Arith Model.Construct Model.Geo.
From SF Require Import Proofs.BoxExact Proofs.PolygonCtor Proofs.GeoProofs.
From SF Require Import Proofs.GeoPolygonBack.
Open Scope Z_scope.

(** Points, multipoints and polylines (any dimension) become Point, MultiPoint
    and MultiLineString holding every X/Y pair, in order, grouped as the parts. *)
Theorem C20_to_geo :
  (forall d p, to_geo (SPoint d p) = Some (GPoint (xy p))) /\
  (forall d b ps, to_geo (SMultipoint d b ps) = Some (GMultiPoint (map xy ps))) /\
  (forall d b parts, to_geo (SPolyline d b parts) = Some (GMultiLineString (map (map xy) parts))).
Proof. repeat split. Qed.
Print Assumptions C20_to_geo.

(** Polygons (closed rings, first ring outer): flattening the resulting
    polygons - exterior, then its holes - gives back exactly the rings' X/Y
    sequences with their roles, in order: each outer ring opens a polygon and
    the inner rings that follow it are its holes; nothing is lost or regrouped. *)
Theorem C20_polygon_grouping : forall d b rings gs,
  to_geo (SPolygon d b rings) = Some (GMultiPolygon gs) ->
  Forall (fun r => geo_close (map xy (snd r)) = map xy (snd r)) rings ->
  match rings with (Inner, _) :: _ => False | _ => True end ->
  flat_polys gs = map (fun r => (role_is_outer (fst r), map xy (snd r))) rings.
Proof.
  intros d b rings gs. cbn [to_geo]. intros H Hc Hf. injection H as <-. apply group_rings_flat_all; [apply Forall_map, Hc|].
  destruct rings as [|[[|] pts] r]; exact Hf.
Qed.
Print Assumptions C20_polygon_grouping.

(** Converting back yields the original 2-D shape (through the constructor,
    which recomputes the exact box of the same vertices). *)
Theorem C20_back :
  (forall p, clean2 p -> from_geo (GPoint (xy p)) = Ok (SPoint XY p)) /\
  (forall ps, Forall clean2 ps -> from_geo (GMultiPoint (map xy ps)) = mk_multipoint XY ps) /\
  (forall parts, Forall (Forall clean2) parts -> from_geo (GMultiLineString (map (map xy) parts)) = mk_polyline XY parts).
Proof.
  split; [|split].
  - intros p H. cbn [from_geo]. rewrite pt_of_xy by exact H. reflexivity.
  - intros ps H. cbn [from_geo]. rewrite map_pt_of_xy by exact H. reflexivity.
  - intros parts H. cbn [from_geo]. f_equal. rewrite map_map. rewrite <- (map_id parts) at 2. apply map_ext_in.
    intros ps Hin. rewrite Forall_forall in H. apply map_pt_of_xy, H, Hin.
Qed.
Print Assumptions C20_back.

(** geometry -> shape -> geometry is the identity (as the corresponding
    multi-geometry) for MultiPoint, LineString and MultiLineString whenever the
    conversion to a shape succeeds. *)
Theorem C20_from_geo :
  (forall l s, from_geo (GMultiPoint l) = Ok s -> to_geo s = Some (GMultiPoint l)) /\
  (forall l s, from_geo (GLineString l) = Ok s -> to_geo s = Some (GMultiLineString [l])) /\
  (forall l s, from_geo (GMultiLineString l) = Ok s -> to_geo s = Some (GMultiLineString l)).
Proof.
  split; [|split]; intros l s; cbn [from_geo]; intros H.
  - apply mk_multipoint_inv in H. destruct H as (b & _ & ->). cbn [to_geo]. rewrite map_xy_pt_of. reflexivity.
  - apply mk_polyline_new_inv in H. destruct H as (b & _ & ->). cbn [to_geo map]. rewrite map_xy_pt_of. reflexivity.
  - apply mk_polyline_inv in H. destruct H as (b & _ & ->). cbn [to_geo].
    rewrite map_map, (map_ext _ _ map_xy_pt_of), map_id. reflexivity.
Qed.
Print Assumptions C20_from_geo.

(** Refusals are error values: the null shape, any multipatch containing a
    triangle strip or fan, geometry collections, rects and triangles. *)
Theorem C20_refusals :
  to_geo SNull = None /\
  (forall b ps, (exists k pts, In (k, pts) ps /\ (k = KStrip \/ k = KFan)) -> to_geo (SMultipatch b ps) = None) /\
  from_geo GCollection = Err EDbase /\ (forall a b, from_geo (GRect a b) = Err EDbase) /\
  (forall a b c, from_geo (GTriangle a b c) = Err EDbase).
Proof.
  split; [reflexivity|]. split; [|repeat split; reflexivity].
  intros b ps (k & pts & Hin & Hk). cbn [to_geo].
  assert (E : patches_rings ps = None).
  { induction ps as [|[k0 p0] r IH]; [contradiction|]. cbn [patches_rings]. destruct Hin as [E|Hin].
    - injection E as -> ->. destruct Hk as [-> | ->]; reflexivity.
    - rewrite (IH Hin). destruct (patch_outer k0); reflexivity. }
  rewrite E. reflexivity.
Qed.
Print Assumptions C20_refusals.

(** geo-traits view: for Point, PointM, PointZ and every measure pattern
    (real, NO_DATA, below it, NaN, infinities) the reported dimension count is
    between 2 and 4 and every index below it can be read (no panic) and returns
    the matching field. *)
Theorem C20_dims : forall (d : dim) (p : pt) (i : Z),
  2 <= coord_dim d p <= 4 /\
  (0 <= i < coord_dim d p ->
   coord_nth d p i = Ok (if i =? 0 then px p else if i =? 1 then py p
                         else match d with XYZM => if i =? 2 then pz p else pm p | _ => pm p end)).
Proof.
  intros d p i. unfold coord_dim, coord_nth. split; [destruct d; try lia; destruct (is_no_data (pm p)); lia|].
  intros Hi. destruct d.
  - assert (i = 0 \/ i = 1) as [-> | ->] by lia; reflexivity.
  - destruct (is_no_data (pm p)); [assert (i = 0 \/ i = 1) as [-> | ->] by lia; reflexivity|].
    assert (i = 0 \/ i = 1 \/ i = 2) as [-> | [-> | ->]] by lia; reflexivity.
  - destruct (is_no_data (pm p)) eqn:E.
    + assert (i = 0 \/ i = 1 \/ i = 2) as [-> | [-> | ->]] by lia; reflexivity.
    + assert (i = 0 \/ i = 1 \/ i = 2 \/ i = 3) as [-> | [-> | [-> | ->]]] by lia; cbn; rewrite ?E; reflexivity.
Qed.
Print Assumptions C20_dims.

Definition c20_nan : f64 := 9221120237041090560.
Example C20_example :
  coord_dim XYZM (mkpt 1 2 3 c20_nan) = 4 /\ coord_nth XYZM (mkpt 1 2 3 c20_nan) 3 = Ok c20_nan /\
  coord_dim XYZM (mkpt 1 2 3 F_NO_DATA) = 3 /\
  from_geo (GLineString [(1, 2)]) = Panic.
Proof. repeat split; vm_compute; reflexivity. Qed.

(** An outer-first 2-D polygon as the constructor leaves it — every ring
    closed and oriented as its role says (C16), vertices without Z or M —
    converted to geo-types and back is the same polygon, box included. *)
Theorem C20_polygon_back : forall (rings0 : list (role * list pt)) (s : shape),
  mk_polygon XY rings0 = Ok s ->
  Forall (fun r => is_part_closed XY (snd r) = true /\ ring_role (snd r) = fst r) (rings_of s) ->
  Forall (fun r => Forall clean2 (snd r)) (rings_of s) ->
  match rings_of s with (Inner, _) :: _ => False | _ => True end ->
  exists gs, to_geo s = Some (GMultiPolygon gs) /\ from_geo (GMultiPolygon gs) = Ok s.
Proof.
  intros rings0 s Hmk Hfix Hclean Hfirst. pose proof (mk_polygon_idempotent XY rings0 s Hmk Hfix) as Hidem.
  apply mk_polygon_inv in Hmk. destruct Hmk as (b & _ & ->). cbn [rings_of] in *.
  set (rings := map (close_and_reorder XY) rings0) in *.
  exists (group_rings (map view rings) None []). split; [reflexivity|].
  assert (Hflat : flat_polys (group_rings (map view rings) None []) = map view rings).
  { apply (C20_polygon_grouping XY b rings _ eq_refl); [|exact Hfirst].
    eapply Forall_impl; [|exact Hfix]. intros r [Hc _]. apply gclosed_xy, Hc. }
  cbn [from_geo]. rewrite all_rings_ok, Hflat.
  - rewrite (map_unview_view rings Hclean), (map_close_and_reorder_fixpoint XY rings Hfix). exact Hidem.
  - (* an outer ring is closed, hence not empty *)
    apply ext_nonempty_flat. rewrite Hflat. apply Forall_map. eapply Forall_impl; [|exact Hfix].
    intros r [Hc _] _ E. apply map_eq_nil in E. rewrite E in Hc. discriminate.
Qed.
Print Assumptions C20_polygon_back.

(** A geo-types multi-polygon whose rings are non-empty and closed (what
    `geo_types::Polygon::new` guarantees unless a ring starts with a NaN),
    converted to a shape and back: the same polygons in the same order, each with
    the same rings in the same order and roles, every ring the same coordinate
    sequence or its reversal ([ring_trip] names which). *)
Theorem C20_multipolygon_from_geo : forall (ps : list gpoly) (s : shape),
  Forall good_gpoly ps -> from_geo (GMultiPolygon ps) = Ok s ->
  exists ps', to_geo s = Some (GMultiPolygon ps') /\
    flat_polys ps' = map ring_trip (flat_polys ps) /\
    Forall (fun a => fst (ring_trip a) = fst a /\ ring_sim (snd a) (snd (ring_trip a))) (flat_polys ps).
Proof.
  intros ps s Hg Hfrom. cbn [from_geo] in Hfrom.
  rewrite all_rings_ok in Hfrom by (eapply Forall_impl; [|exact Hg]; intros p H; apply H). cbn [rbind] in Hfrom.
  refine (polygon_trip (fun r => close_and_reorder XY (close_and_reorder XY r)) _ s (flat_polys ps)
            close_and_reorder_twice _ _ Hfrom (map_map _ _ _)).
  - unfold flat_polys. apply Forall_flat_map. eapply Forall_impl; [|exact Hg]. exact good_flat_poly.
  - destruct ps; exact I.
Qed.
Print Assumptions C20_multipolygon_from_geo.

(** The same for a single geo-types polygon, whose rings pass through the
    polygon constructor once ([ring_trip1]). *)
Theorem C20_polygon_from_geo : forall (p : gpoly) (s : shape),
  good_gpoly p -> from_geo (GPolygon p) = Ok s ->
  exists ps', to_geo s = Some (GMultiPolygon ps') /\
    flat_polys ps' = map ring_trip1 (flat_poly p) /\
    Forall (fun a => fst (ring_trip1 a) = fst a /\ ring_sim (snd a) (snd (ring_trip1 a))) (flat_poly p).
Proof.
  (* unfolded in the goal: changing the hypothesis makes the kernel evaluate [mk_polygon] when it compares the two forms *)
  intros p s Hg. unfold from_geo. intros Hfrom. rewrite rings_of_gpoly_flat in Hfrom.
  exact (polygon_trip (close_and_reorder XY) _ s (flat_poly p) close_and_reorder_once (good_flat_poly p Hg) I Hfrom eq_refl).
Qed.
Print Assumptions C20_polygon_from_geo.

(** The premises are satisfiable: the unit triangle with a hole-less exterior, there and back. *)
Definition c20_tri : list Geo.coord := [(0, 0); (0, 4607182418800017408); (4607182418800017408, 0); (0, 0)].
Example C20_polygon_example :
  good_gpoly (gpoly_new c20_tri []) /\
  (match from_geo (GMultiPolygon [gpoly_new c20_tri []]) with Ok s => to_geo s | _ => None end)
  = Some (GMultiPolygon [gpoly_new c20_tri []]).
Proof.
  split; [split; [split; [vm_compute; discriminate|vm_compute; reflexivity]|constructor]|vm_compute; reflexivity].
Qed.
