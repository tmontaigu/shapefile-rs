(** C06 — Typed reads agree with generic reads; shape type identity is
    consistent.  The theorems of the property, proved from the lemmas of
    Proofs/TypedGeneric.v, Proofs/TypedIteration.v (over Proofs/ReaderSeq.v). *)
From SF Require Import Model.Bytes Model.ShapeType Model.Shapes Model.Res Model.Prog Model.Decode
  Model.Reader Model.Convert.
From SF Require Import Spec.Esri Spec.Denote.
From SF Require Import Proofs.ShapeTypeProofs Proofs.ProgLemmas Proofs.TypedGeneric Proofs.ReaderSeq
  Proofs.TypedIteration.
Open Scope Z_scope.

(** On any source in any state (any bytes, faults, short data): whenever the
    generic read of a record succeeds with value x, the typed read of the same
    record as S returns exactly `S::try_from(x)` — x itself if it is an S,
    otherwise the type-mismatch error naming S as requested and x's type as
    actual. *)
Theorem C06_typed_vs_generic : forall (t : shape_type) (s : src) (h : Z * Z) (x : shape) (s' : src),
  run (read_one_shape None) s = (Ok (h, x), s') ->
  fst (run (read_one_shape (Some t)) s) = rmap (fun y => (h, y)) (try_from t x).
Proof. exact typed_read_one_shape. Qed.
Print Assumptions C06_typed_vs_generic.

(** A typed read never yields a value of another type. *)
Theorem C06_never_wrong_type : forall (t : shape_type) (record_size : Z) (s : src) (x : shape) (s' : src),
  run (read_from (Some t) record_size) s = (Ok x, s') -> type_of x = t.
Proof.
  intros t record_size. change (returns_type (read_from (Some t) record_size) t). unfold read_from.
  apply rt_bind; intros t0. cbv zeta. destruct (st_eqb t0 t); [apply read_content_type|apply rt_fail].
Qed.
Print Assumptions C06_never_wrong_type.

(** Type identity, for each of the 14 kinds: the type reported by a generic
    shape value = the type attached to its concrete Rust type; a record with
    type code c decodes (if at all) to the variant whose type has code c; the
    conversion error names the requested type and that same type. *)
Theorem C06_type_identity : forall (s : shape), shape_shapetype s = type_of s.
Proof. exact shape_shapetype_type_of. Qed.
Print Assumptions C06_type_identity.

Theorem C06_dispatch : forall (t : shape_type) (size : Z) (s : src) (x : shape) (s' : src),
  run (read_content t size) s = (Ok x, s') -> type_of x = t /\ st_decode (st_code (type_of x)) = Some t.
Proof. intros t size s x s' E. pose proof (read_content_type t size s x s' E) as H. rewrite H. split; [reflexivity|apply st_decode_code]. Qed.
Print Assumptions C06_dispatch.

Theorem C06_try_from : forall (t : shape_type) (s : shape),
  try_from t s = if st_eqb (type_of s) t then Ok s else Err (EMismatch t (type_of s)).
Proof. exact try_from_spec. Qed.
Print Assumptions C06_try_from.

(** Concrete -> generic -> concrete is the identity. *)
Theorem C06_from_tryfrom : forall (s : shape), try_from (type_of s) (shape_from s) = Ok s.
Proof. intros s. unfold try_from, shape_from. rewrite st_eqb_refl. reflexivity. Qed.
Print Assumptions C06_from_tryfrom.

(** Bulk conversion stops at the first mismatch, with that value's error. *)
Theorem C06_bulk : forall (t : shape_type) (l : list shape),
  convert_all t l = match first_other t l with None => Ok l | Some s => Err (EMismatch t (type_of s)) end.
Proof.
  intros t l. induction l as [|s r IH]; [reflexivity|]. cbn [convert_all first_other]. rewrite try_from_spec.
  destruct (st_eqb (type_of s) t); [|reflexivity]. rewrite IH. destruct (first_other t r); reflexivity.
Qed.
Print Assumptions C06_bulk.

Example C06_example :
  let p := SPoint XY (mkpt 1 2 0 0) in let q := SMultipoint XYM box0 [] in
  convert_all TPoint [p; SNull; q] = Err (EMismatch TPoint TNull) /\ try_from TMultipointM q = Ok q /\
  try_from TMultipointZ q = Err (EMismatch TMultipointZ TMultipointM).
Proof. repeat split. Qed.

(** At the level of whole files: reading a conformant record stream (records of
    any types in any mixture, null records included) without index with the
    typed reader of type t yields the records of type t up to the first record
    of another type, for which it yields the mismatch error naming t and that
    record's type, and then ends ([typed_items])... *)
Theorem C06_typed_iteration : forall (t : shape_type) (rs : list (Z * ref_rec)) (st : rstate) (s : src) (rest : bytes),
  r_index st = None -> clean s -> r_cur st = s_pos s ->
  flen_bytes st = r_cur st + zlen (ref_records_bytes rs) -> flen_bytes st < two64 ->
  Forall (record_ok None) rs -> s_rest s = ref_records_bytes rs ++ rest ->
  exists st' s', run (it_pull (S (S (length rs))) (Some t) st) s = (Ok (typed_items t rs, true, st'), s').
Proof.
  intros t rs st s rest Hidx Hcl Hcur Hlen Hov Hok Hr.
  apply (typed_iteration t (s_data s)); [|exact Hlen|exact Hok].
  apply (seq_at_plain st s rs rest); try assumption. lia.
Qed.
Print Assumptions C06_typed_iteration.

(** ...which is the generic result converted record by record and cut after
    the first error; hence the bulk typed read (`read_as::<T>`, collecting until
    the first error) is the bulk generic read followed by the bulk conversion. *)
Theorem C06_typed_is_generic_converted : forall (t : shape_type) (rs : list (Z * ref_rec)),
  Forall (fun nr => rec_conformant (snd nr)) rs ->
  typed_items t rs = cut_after_error (map (fun nr => try_from t (denote (snd nr))) rs) /\
  collect_res (typed_items t rs) = convert_all t (map (fun nr => denote (snd nr)) rs).
Proof.
  intros t rs H.
  assert (E : typed_items t rs = cut_after_error (map (fun nr => try_from t (denote (snd nr))) rs)).
  { induction H as [|[n r] rs Hc _ IH]; [reflexivity|]. cbn [typed_items map snd cut_after_error].
    rewrite try_from_spec, (type_of_denote r Hc). destruct (st_eqb (ref_type r) t); [rewrite IH; reflexivity|reflexivity]. }
  split; [exact E|]. rewrite E, collect_cut, <- collect_map_try_from, map_map. reflexivity.
Qed.
Print Assumptions C06_typed_is_generic_converted.

