(** C19 — Shape type codes form the ESRI table, for every 32-bit value (here:
    for every integer).  The theorems of the property, proved from the lemmas of
    Proofs/ShapeTypeProofs.v. *)
From SF Require Import Model.Bytes Model.ShapeType.
From SF Require Import Proofs.ShapeTypeProofs.
From Coq Require Import String.
Open Scope Z_scope.

(** Decoding and encoding are mutually inverse. *)
Theorem C19_decode_iff : forall (c : Z) (t : shape_type), st_decode c = Some t <-> st_code t = c.
Proof. intros c t. split; [apply st_decode_some|]. intros <-; apply st_decode_code. Qed.
Print Assumptions C19_decode_iff.

(** The image of the encoding is exactly the 14 ESRI codes; every other
    integer (in particular every other 32-bit value) fails to decode. *)
Theorem C19_image : forall c : Z,
  (In c [0; 1; 3; 5; 8; 11; 13; 15; 18; 21; 23; 25; 28; 31] <-> exists t, st_decode c = Some t)
  /\ (~ In c [0; 1; 3; 5; 8; 11; 13; 15; 18; 21; 23; 25; 28; 31] -> st_decode c = None).
Proof.
  (* the list of the statement is [esri_codes] = [map st_code all_types], by computation *)
  intros c.
  assert (Hin : forall t, st_decode c = Some t -> In c esri_codes).
  { intros t H. apply st_decode_some in H. subst c. apply st_code_in_table. }
  split; [split|].
  - intros H. apply (in_map_iff st_code all_types c) in H. destruct H as (t & <- & _). exists t. apply st_decode_code.
  - intros [t H]. exact (Hin t H).
  - intros Hn. destruct (st_decode c) as [t|]; [destruct (Hn (Hin t eq_refl))|reflexivity].
Qed.
Print Assumptions C19_image.

Theorem C19_injective : forall a b : shape_type, st_code a = st_code b -> a = b.
Proof. exact st_code_injective. Qed.
Print Assumptions C19_injective.

(** Predicates and display names are those of the ESRI table. *)
Theorem C19_table : forall t : shape_type,
  In (st_code t, (st_has_z t, (st_has_m t, (st_is_multipart t, st_name t)))) esri_table.
Proof. intros t. rewrite <- rows_are_the_table. exact (in_map row_of all_types t (all_types_complete t)). Qed.
Print Assumptions C19_table.

Theorem C19_predicates : forall t : shape_type,
  (st_has_z t = true <-> In t [TPointZ; TPolylineZ; TPolygonZ; TMultipointZ; TMultipatch]) /\
  (st_has_m t = true <-> In t [TPointM; TPolylineM; TPolygonM; TMultipointM;
                                TPointZ; TPolylineZ; TPolygonZ; TMultipointZ]) /\
  (In t [TPolyline; TPolylineM; TPolylineZ; TPolygon; TPolygonM; TPolygonZ; TMultipatch]
     -> st_is_multipart t = true) /\
  (In t [TPoint; TPointM; TPointZ; TMultipoint; TMultipointM; TMultipointZ]
     -> st_is_multipart t = false).
Proof.
  intros t; destruct t; cbn; intuition discriminate.
Qed.
Print Assumptions C19_predicates.

Example C19_example : st_decode 25 = Some TPolygonM /\ st_decode 60 = None /\ st_decode (-1) = None
  /\ st_decode 4294967297 = None.
Proof. repeat split. Qed.
