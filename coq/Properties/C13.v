(** C13 — Truncated or failing sources give errors and only genuine shapes.
    The theorems of the property, proved from the lemmas of Proofs/ProgLemmas.v
    (truncation of simple programs), Proofs/DecodeClosed.v (the readers are
    simple), Proofs/RecordL1.v (one record), Proofs/ReaderSeq.v (opening),
    Proofs/Truncation.v (iteration over a cut record stream), Proofs/Faults.v. *)
From SF Require Import Model.Bytes Model.ShapeType Model.Shapes Model.Res Model.Encode Model.Prog
  Model.Decode Model.Reader Spec.Esri Spec.Denote.
From SF Require Import Proofs.BytesLemmas Proofs.ProgLemmas Proofs.RecordL1 Proofs.DecodeClosed
  Proofs.ReaderSeq Proofs.Truncation Proofs.Faults.
Open Scope Z_scope.

(** Every conformant file (any of the 14 types, any records, foreign layouts
    included), cut at ANY length l from the end of the header to one byte
    before its end, read sequentially: exactly the records wholly contained in
    the retained bytes are returned, each equal to the original, in order;
    then the cut record is reported as UnexpectedEof; then the iteration ends.
    Nothing is invented. *)
Theorem C13_truncation : forall (req : option shape_type) (g : ref_file) (l : Z),
  file_conformant g -> Forall (record_ok req) (rf_records g) -> 100 <= l < zlen (ref_shp g) ->
  exists s',
    run (st <-- r_new ;; x <-- it_pull (S (S (length (rf_records g)))) req st ;; Ret (fst x))
        (src_of (firstn (Z.to_nat l) (ref_shp g)))
    = (Ok (map (fun nr => Ok (denote (snd nr))) (inside (l - 100) (rf_records g)) ++ [Err EIoEof], true), s').
Proof.
  intros req g l Hg Hok Hl. destruct (open_conformant g [] Hg) as (s1 & Hrun1 & Hat & Hfl). rewrite app_nil_r in Hrun1, Hat.
  pose proof (sq_cur _ _ _ _ _ Hat) as Hp1. cbn [r_cur] in Hp1. rewrite zlen_ref_shp in Hl by apply Hg.
  (* the header survives the cut *)
  destruct (simple_truncation _ simple_r_new _ _ s1 (clean_src_of _) Hrun1 l ltac:(cbn; lia)) as [Hcut _].
  specialize (Hcut ltac:(lia)). change (truncate l (src_of (ref_shp g))) with (src_of (firstn (Z.to_nat l) (ref_shp g))) in Hcut.
  destruct (truncated_iteration req _ l _ _ _ (seq_at_truncate _ l _ _ _ Hat) Hfl Hok) as (st2 & s2 & Hrun2);
    cbn [truncate s_pos] in *; rewrite <- Hp1 in *; [lia|].
  eexists. rewrite run_bind, Hcut, run_bind, Hrun2. reflexivity.
Qed.
Print Assumptions C13_truncation.

(** Cut inside the header: opening reports UnexpectedEof. *)
Theorem C13_truncated_header : forall (g : ref_file) (l : Z),
  file_conformant g -> 0 <= l < 100 ->
  exists s', run r_new (src_of (firstn (Z.to_nat l) (ref_shp g))) = (Err EIoEof, s').
Proof.
  intros g l Hg Hl. destruct (open_conformant g [] Hg) as (s1 & Hrun1 & Hat & _). rewrite app_nil_r in Hrun1, Hat.
  destruct (simple_truncation _ simple_r_new _ _ s1 (clean_src_of _) Hrun1 l ltac:(cbn; lia)) as [_ Hcut].
  apply Hcut. rewrite <- (sq_cur _ _ _ _ _ Hat). cbn [r_cur]. lia.
Qed.
Print Assumptions C13_truncated_header.

(** [inside m rs] is a prefix of the records that fits in m bytes (the longest,
    by its definition: it stops only at a record that does not fit). *)
Theorem C13_inside_is_prefix : forall (rs : list (Z * ref_rec)) (m : Z),
  exists rest, rs = inside m rs ++ rest /\ zlen (ref_records_bytes (inside m rs)) <= Z.max 0 m.
Proof.
  induction rs as [|[n r] rs IH]; intros m; cbn [inside].
  - exists []. split; [reflexivity|]. cbn. lia.
  - destruct (Z.leb_spec (zlen (ref_record n r)) m).
    + destruct (IH (m - zlen (ref_record n r))) as (rest & E & Hl). exists rest. split; [cbn [app]; f_equal; exact E|].
      unfold ref_records_bytes in *. cbn [flat_map fst snd]. rewrite zlen_app. lia.
    + exists ((n, r) :: rs). split; [reflexivity|]. cbn. lia.
Qed.

(** One record: a cut anywhere strictly inside it reads as UnexpectedEof,
    whatever reader is asked for; a cut after it changes nothing. *)
Theorem C13_record_cut : forall (req : option shape_type) (num : Z) (r : ref_rec) (s : src) (rest : bytes) (k : Z),
  in_i32 num -> rec_conformant r -> zlen (ref_content r) < two31 -> accepts req r ->
  clean s -> s_rest s = ref_record num r ++ rest ->
  s_pos s <= k < s_pos s + zlen (ref_record num r) ->
  exists s2, run (read_one_shape req) (truncate k s) = (Err EIoEof, s2).
Proof.
  intros req num r s rest k Hnum Hc Hlt Ha Hcl Hr Hk.
  destruct (L1_record req num r Hnum Hc Hlt Ha s rest Hcl Hr) as (s' & Hrun & Hc' & Hd & Hp).
  destruct (simple_truncation _ (simple_read_one_shape req) s _ s' Hcl Hrun k (proj1 Hk)) as [_ H2].
  apply H2. lia.
Qed.
Print Assumptions C13_record_cut.

(** A source that fails its k-th operation (one-shot or persistent): a reading
    program that reaches that operation returns the injected error from the
    call in progress; one that finishes before is unaffected.  Holds for every
    simple program, in particular the record, header and index readers. *)
Theorem C13_fault : forall (req : option shape_type) (s : src) (r : res ((Z * Z) * shape)) (s' : src) (f : fault),
  s_fault s = None -> (s_ops s <= f_at f)%nat -> run (read_one_shape req) s = (r, s') ->
  ((s_ops s' <= f_at f)%nat -> run (read_one_shape req) (with_fault s f) = (r, with_fault s' f)) /\
  ((f_at f < s_ops s')%nat -> fst (run (read_one_shape req) (with_fault s f)) = Err EIoInjected).
Proof. intros req. exact (simple_fault _ (simple_read_one_shape req)). Qed.
Print Assumptions C13_fault.

Theorem C13_fault_open : forall (s : src) (r : res header) (s' : src) (f : fault),
  s_fault s = None -> (s_ops s <= f_at f)%nat -> run read_header s = (r, s') -> (f_at f < s_ops s')%nat ->
  fst (run read_header (with_fault s f)) = Err EIoInjected.
Proof. intros s r s' f Hf Hle Hrun Hlt. exact (proj2 (simple_fault _ simple_read_header s r s' f Hf Hle Hrun) Hlt). Qed.
Print Assumptions C13_fault_open.

(** Short reads: std's `read_exact` loop over a source that returns at most
    c_i >= 1 bytes on its i-th `read` call returns exactly the bytes a source
    that returns them all returns (and fails with EOF in exactly the same
    cases), for every schedule. *)
Theorem C13_short_reads : forall (fuel n : nat) (rest : bytes) (sched : list nat), (n <= fuel)%nat ->
  fst (fst (read_exact_loop fuel n rest sched)) = (if (n <=? length rest)%nat then Some (firstn n rest) else None) /\
  ((n <= length rest)%nat -> snd (fst (read_exact_loop fuel n rest sched)) = skipn n rest).
Proof.
  induction fuel as [|fuel IH]; intros n rest sched Hn.
  - assert (n = 0%nat) by lia. subst n. cbn. split; [reflexivity|intros; reflexivity].
  - destruct n as [|m]; [cbn; split; [reflexivity|intros; reflexivity]|].
    cbn [read_exact_loop].
    set (c := match sched with [] => S m | c0 :: _ => Nat.min (Nat.max c0 1) (S m) end).
    assert (Hc : (1 <= c <= S m)%nat) by (unfold c; destruct sched; lia).
    destruct (firstn c rest) as [|g0 got'] eqn:Eg.
    + assert (rest = []) by (destruct rest; [reflexivity|destruct c; [lia|discriminate]]). subst rest.
      cbn. split; [reflexivity|intros; lia].
    + set (got := g0 :: got') in *.
      assert (Hlg : length got = Nat.min c (length rest)) by (rewrite <- Eg; apply firstn_length).
      assert (Hg1 : (1 <= length got)%nat) by (unfold got; cbn; lia).
      destruct (IH (S m - length got)%nat (skipn c rest) (tl sched) ltac:(lia)) as [IH1 IH2].
      destruct (read_exact_loop fuel (S m - length got) (skipn c rest) (tl sched)) as [[r rest'] sched''].
      cbn [fst snd] in *. rewrite skipn_length in IH1, IH2.
      destruct (Nat.leb_spec c (length rest)) as [Hcl|Hcl].
      * (* a full chunk *)
        assert (Hgc : length got = c) by lia. rewrite Hgc in *.
        destruct (Nat.leb_spec (S m) (length rest)) as [Hfit|Hnofit].
        -- destruct (Nat.leb_spec (S m - c) (length rest - c)); [|lia]. rewrite IH1. split.
           ++ (* the chunk, then the first S m - c bytes behind it *)
              f_equal. rewrite <- Eg, firstn_skipn_comm. replace (c + (S m - c))%nat with (S m) by lia.
              rewrite <- (firstn_skipn c (firstn (S m) rest)) at 2. rewrite firstn_firstn, Nat.min_l by lia. reflexivity.
           ++ intros _. rewrite IH2 by lia. rewrite skipn_skipn_. f_equal. lia.
        -- destruct (Nat.leb_spec (S m - c) (length rest - c)); [lia|]. rewrite IH1. split; [reflexivity|intros; lia].
      * (* the last, partial chunk: not enough data *)
        assert (Hgr : length got = length rest) by lia.
        destruct (Nat.leb_spec (S m) (length rest)); [lia|].
        destruct (Nat.leb_spec (S m - length got) (length rest - c)); [lia|]. rewrite IH1. split; [reflexivity|intros; lia].
Qed.
Print Assumptions C13_short_reads.

Example C13_example :
  fst (fst (read_exact_loop 8 8 [1;2;3;4;5;6;7;8;9] [1; 3; 1; 100]%nat)) = Some [1;2;3;4;5;6;7;8] /\
  fst (fst (read_exact_loop 8 8 [1;2;3;4;5] [2; 2; 2; 2]%nat)) = None.
Proof. split; vm_compute; reflexivity. Qed.
